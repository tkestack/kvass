(* Proofs/CoordC19.v — (1) a target some reachable shard reports is never first-assigned (C08);
   (2) what moves in a cycle is never what was first-assigned in it, so explorer objects, the only
   objects shared between replicas, are not mutated by a cycle (C19); (3) replicas are independent. *)
From KV Require Import Base.Util Base.AMap Base.Sched Model.Coordinator Model.CoordCheck Proofs.CoordBasics
  Proofs.CoordC01 Proofs.CoordEvents Proofs.CoordCycle.
Local Open Scope list_scope.
Local Open Scope Z_scope.

Lemma first_event o i sch e :
  In e (o_events (cycle o i sch)) -> ev_kind_of e = First ->
  let S := run_stages o i (sst_of sch) in
  ev_times e = c_times (global_status (i_explore i) (st_p0 S) (ev_hash e)) /\
  not_assignable (i_active i) (st_p2 S) (ev_hash e) = false.
Proof. intros He Hk. apply (eg_first _ _ _ _ _ (cycle_event_good o i sch e He) Hk). Qed.

(* C08: targets a reachable shard reports scraping are not assigned a second time: gc keeps some copy of a discovered
   target that any shard plans (in sync or not), and relief only adds copies *)
Theorem c08_no_second_assignment o i sch e k :
  NoDupReports i ->
  In e (o_events (cycle o i sch)) -> ev_kind_of e = First ->
  is_active (i_active i) (ev_hash e) = true /\ ~ In (ev_hash e) (akeys (reported i k)).
Proof.
  intros Hnd He Hk. destruct (first_event o i sch e He Hk) as [_ Hsc]. unfold not_assignable in Hsc.
  apply orb_false_iff in Hsc. destruct Hsc as [Hact Hnone]. apply negb_false_iff in Hact.
  split; [assumption|]. intros Hrep.
  set (p0 := map (fun sh => fst (get_info sh)) (i_shards i)).
  assert (H0 : In (ev_hash e) (keys_at p0 k)) by (unfold p0; now rewrite keys_at_p0).
  destruct (gc_keeps_copy o (i_active i) p0 k (ev_hash e) (nodup_p0 i Hnd) Hact H0) as (j & Hj & _).
  assert (Hj2 : In (ev_hash e) (keys_at (st_p2 (run_stages o i (sst_of sch))) j)).
  { apply (le_keys _ _ (stages_le_12 o i (sst_of sch))). now rewrite stages_p1, stages_p0, recover_keys. }
  rewrite (amem_existsb _ _ j Hj2) in Hnone. discriminate.
Qed.

(* what the explorer hands out: never scraped through a shard, in normal state *)
Definition SaneExplorer (i : input) : Prop :=
  forall h c, afind h (i_explore i) = Some c -> c_times c = 0%N /\ c_state c = Normal.

Theorem c19_first_is_explorer_object o i sch e :
  NoDupReports i -> SaneExplorer i ->
  In e (o_events (cycle o i sch)) -> ev_kind_of e = First -> ev_times e = 0%N.
Proof.
  intros Hnd Hex He Hk. destruct (first_event o i sch e He Hk) as [-> _].
  unfold global_status. rewrite first_known_none.
  - destruct (afind (ev_hash e) (i_explore i)) as [c|] eqn:E; [apply (Hex _ _ E) | reflexivity].
  - intros j Hin. rewrite stages_p0, keys_at_p0 in Hin.
    now apply (c08_no_second_assignment o i sch e j Hnd He Hk).
Qed.

(* every copy that is moved (and thereby marked in-transfer in place) has been scraped min_wait >= 1 times:
   it is never an object placed by a first assignment of this cycle *)
Theorem c19_moved_not_fresh o i sch e e' :
  NoDupReports i -> SaneExplorer i ->
  In e (o_events (cycle o i sch)) -> In e' (o_events (cycle o i sch)) ->
  ev_from e <> None -> ev_kind_of e' = First -> ev_times e <> ev_times e'.
Proof.
  intros Hnd Hex He He' Hfrom Hk.
  rewrite (c19_first_is_explorer_object o i sch e' Hnd Hex He' Hk).
  destruct (eg_moved _ _ _ _ _ (cycle_event_good o i sch e He) Hfrom) as [Ht _]. rewrite minwait_is_3 in Ht. lia.
Qed.

(* the run over all replicas: one cycle per replica whose shard listing succeeds *)
Record replica_in := { ri_list_ok : bool; ri_shards : list shard_in; ri_scale1_ok : bool }.
Definition replica_input (active : list (N * N)) (explore : amap cstat) (r : replica_in) : input :=
  {| i_shards := ri_shards r; i_active := active; i_explore := explore; i_scale1_ok := ri_scale1_ok r |}.
Definition run_once (o : opts) (active : list (N * N)) (explore : amap cstat)
           (reps : list (replica_in * list nat)) : list (option output) :=
  map (fun rs => if ri_list_ok (fst rs) then Some (cycle o (replica_input active explore (fst rs)) (snd rs)) else None) reps.

(* what replica j's shards are sent is a function of replica j alone: any other replica may be absent, fail to
   list, fail to scale, be unready or hold any placement *)
Theorem c19_independent o active explore reps reps' j r sch :
  nth_error reps j = Some (r, sch) -> nth_error reps' j = Some (r, sch) ->
  nth_error (run_once o active explore reps) j = nth_error (run_once o active explore reps') j /\
  nth_error (run_once o active explore reps) j =
    Some (if ri_list_ok r then Some (cycle o (replica_input active explore r) sch) else None).
Proof.
  intros H H'. unfold run_once. rewrite !nth_error_map, H, H'. simpl. auto.
Qed.
