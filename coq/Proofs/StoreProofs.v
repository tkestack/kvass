(* Proofs/StoreProofs.v — C09: an interrupted save leaves either the previous or the new assignment. *)
From KV Require Import Base.Util Model.Store.
Local Open Scope list_scope.

Section Fast.
Context {B V : Type}.
Variable enc : V -> list B.

Lemma run_effects_cons (s : fs B) e es : run_effects s (e :: es) = run_effects (apply_effect s e) es.
Proof. reflexivity. Qed.

Lemma run_effects_app (s : fs B) es es' : run_effects s (es ++ es') = run_effects (run_effects s es) es'.
Proof. apply fold_left_app. Qed.

(* appends only touch the temporary file *)
Lemma run_appends (s : fs B) l :
  run_effects s (map AppendTmp l) =
  {| f_store := f_store s; f_tmp := match l with [] => f_tmp s | _ => Some (match f_tmp s with Some t => t ++ l | None => l end) end |}.
Proof.
  revert s. induction l as [|b l IH]; intros s; cbn [map]; [now destruct s|].
  rewrite run_effects_cons, IH. cbn [apply_effect f_store f_tmp]. f_equal.
  destruct l as [|c l']; [reflexivity|]. f_equal. destruct (f_tmp s); now rewrite <- ?app_assoc.
Qed.

Lemma run_trunc_appends (s : fs B) l :
  run_effects s (TruncTmp :: map AppendTmp l) = {| f_store := f_store s; f_tmp := Some l |}.
Proof. rewrite run_effects_cons, run_appends. cbn [apply_effect f_store f_tmp]. now destruct l. Qed.

Lemma complete_save (s : fs B) v : run_effects s (save_effects enc v) = {| f_store := Some (enc v); f_tmp := None |}.
Proof.
  unfold save_effects. rewrite app_comm_cons, run_effects_app, run_trunc_appends. reflexivity.
Qed.

Lemma save_effects_length v : length (save_effects enc v) = S (S (length (enc v))).
Proof. unfold save_effects. cbn [length]. rewrite app_length, map_length. cbn [length]. lia. Qed.

(* a closed form of crash_after (Model/Store.v has the same function as crash_model, which the correspondence run evaluates) *)
Definition crash_fast (n : nat) (s : fs B) (v : V) : fs B :=
  match n with
  | O => s
  | S m =>
    let bytes := enc v in
    if Nat.leb m (length bytes)
    then {| f_store := f_store s; f_tmp := Some (firstn m bytes) |}
    else {| f_store := Some bytes; f_tmp := None |}
  end.

Lemma crash_fast_eq n (s : fs B) v : crash_after enc n s v = crash_fast n s v.
Proof.
  unfold crash_after, crash_fast. destruct n as [|m]; [reflexivity|].
  destruct (Nat.leb_spec m (length (enc v))) as [Hle|Hgt].
  - (* the rename is not reached: TruncTmp and m appends *)
    unfold save_effects. cbn [firstn]. rewrite firstn_app, map_length.
    replace (m - length (enc v))%nat with 0%nat by lia.
    cbn [firstn]. rewrite app_nil_r, firstn_map. apply run_trunc_appends.
  - rewrite firstn_all2 by (rewrite save_effects_length; lia). apply complete_save.
Qed.
End Fast.

Section P.
Context {B V : Type}.
Variable enc : V -> list B.
Variable dec : list B -> option V.
Hypothesis dec_enc : forall v, dec (enc v) = Some v.

Notation fs := (fs B).

(* restart without a crash *)
Theorem resume_after_save (s : fs) v : load dec (run_effects s (save_effects enc v)) = LoadOk v.
Proof. rewrite complete_save. unfold load. cbn. now rewrite dec_enc. Qed.

(* the writer is stopped after ANY number of effects: the store file holds the old or the new assignment, whole *)
Theorem crash_atomic (s : fs) v_old v_new n :
  f_store s = Some (enc v_old) ->
  let s' := crash_after enc n s v_new in
  ((n < length (save_effects enc v_new))%nat -> load dec s' = LoadOk v_old /\ f_store s' = f_store s) /\
  ((length (save_effects enc v_new) <= n)%nat -> load dec s' = LoadOk v_new).
Proof.
  intros Hs. cbn zeta. rewrite crash_fast_eq, save_effects_length. unfold crash_fast, load.
  destruct n as [|m].
  - rewrite Hs, dec_enc. split; [auto | lia].
  - destruct (Nat.leb_spec m (length (enc v_new))); cbn [f_store].
    + (* stopped before the rename *) rewrite Hs, dec_enc. split; [auto | lia].
    + (* the rename has happened *) rewrite dec_enc. split; [lia | auto].
Qed.

Corollary crash_old_or_new (s : fs) v_old v_new n :
  f_store s = Some (enc v_old) ->
  load dec (crash_after enc n s v_new) = LoadOk v_old \/ load dec (crash_after enc n s v_new) = LoadOk v_new.
Proof.
  intros Hs. destruct (crash_atomic s v_old v_new n Hs) as [H1 H2]. cbn zeta in *.
  destruct (Nat.lt_ge_cases n (length (save_effects enc v_new))); [left; now apply H1 | right; now apply H2].
Qed.

(* whatever is left of an interrupted save (a partial temporary file) does not disturb the next save *)
Theorem next_save_after_crash (s : fs) v n v' :
  load dec (run_effects (crash_after enc n s v) (save_effects enc v')) = LoadOk v'.
Proof. apply resume_after_save. Qed.

(* first start ever: no store file *)
Theorem load_no_store (s : fs) : f_store s = None -> load dec s = LoadEmpty.
Proof. unfold load. now intros ->. Qed.
End P.

Lemma crash_model_eq n s v : crash_model n s v = crash_after enc_id n s v.
Proof. rewrite crash_fast_eq. reflexivity. Qed.
