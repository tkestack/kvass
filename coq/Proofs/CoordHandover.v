(* Proofs/CoordHandover.v — C05 / C03, the progress half of the hand-over rule: among the copies of one target on the
   in-sync shards, all scraped three times, garbage collection of THIS cycle keeps exactly the best one and the
   recovery pass puts it back to normal: a hand-over does not stay open, a duplicate does not stay (C05_handover is the
   converse: a copy is released only then). *)
From KV Require Import Base.Util Base.AMap Gen.Consts Model.Coordinator Model.CoordCheck Proofs.CoordBasics
  Proofs.CoordC01 Proofs.CoordCycle.
Local Open Scope list_scope.
Local Open Scope Z_scope.

Section Copies.
Variables (o : opts) (w : nat) (cw : cstat) (p : plan).

(* w's copy is better than copy c on shard j: normal before in_transfer, then the lower load, then the front position *)
Definition worse (j : nat) (c : cstat) : Prop :=
  (min_wait <= c_times c)%N /\
  ((c_state c = InTransfer /\ c_state cw = Normal) \/
   (c_state c = c_state cw /\
    (load_of o (nth_si p w) < load_of o (nth_si p j) \/ (load_of o (nth_si p w) = load_of o (nth_si p j) /\ (w < j)%nat)))).
End Copies.

Lemma worse_ge o p q w cw j cj : ge_plan p q -> worse o w cw q j cj <-> worse o w cw p j cj.
Proof. intros G. unfold worse. now rewrite !(load_of_ge o p q _ G). Qed.

Lemma worse_asym o p w cw j cj : worse o w cw p j cj -> worse o j cj p w cw -> False.
Proof. intros [_ [[A B]|[A B]]] [_ [[C D]|[C D]]]; try congruence. lia. Qed.

Lemma worse_trans o p w cw j cj k ck : worse o w cw p j cj -> worse o j cj p k ck -> worse o w cw p k ck.
Proof.
  intros [_ [[A B]|[A B]]] [T [[C D]|[C D]]]; (split; [exact T|]).
  - congruence.
  - left. split; congruence.
  - left. split; congruence.
  - right. split; [congruence|lia].
Qed.

Lemma worse_total o p w cw j cj : w <> j -> (min_wait <= c_times cw)%N -> (min_wait <= c_times cj)%N ->
  worse o w cw p j cj \/ worse o j cj p w cw.
Proof.
  intros Hne Tw Tj. unfold worse.
  assert (L : (load_of o (nth_si p w) < load_of o (nth_si p j) \/
               (load_of o (nth_si p w) = load_of o (nth_si p j) /\ (w < j)%nat)) \/
              (load_of o (nth_si p j) < load_of o (nth_si p w) \/
               (load_of o (nth_si p j) = load_of o (nth_si p w) /\ (j < w)%nat))) by lia.
  destruct (c_state cw), (c_state cj).
  - destruct L; [left|right]; (split; [assumption|right; split; [reflexivity|assumption]]).
  - left. split; [exact Tj|left; auto].
  - right. split; [exact Tw|left; auto].
  - destruct L; [left|right]; (split; [assumption|right; split; [reflexivity|assumption]]).
Qed.

(* `justified` of Proofs/CoordBasics.v, with the comparison named *)
Lemma justified_worse o p k h c :
  justified o p k h c <->
  exists j st, j <> k /\ si_ok (nth_si p j) = true /\ afind h (scr_of (nth_si p j)) = Some st /\
               (min_wait <= c_times st)%N /\ worse o j st p k c.
Proof.
  unfold justified, worse. split.
  - intros (Ht & j & st & A & B & C & D & E). exists j, st. repeat (split; [assumption|]). exact E.
  - intros (j & st & A & B & C & D & Ht & E). split; [exact Ht|]. exists j, st. repeat (split; [assumption|]). exact E.
Qed.

(* among the copies of one target on in-sync shards, all scraped three times, the best one is the only one the in-sync
   shards hold after one garbage-collection walk, whatever its order.  All the proof uses of the walk is that copies only
   go (ge_plan): w's copy passes the test in every plan of the walk, because what could beat it there is a copy of p;
   and when the walk comes to another shard, w still has its copy, because it has it at the end *)
Theorem gc_leaves_the_best_copy o active w h cw p :
  is_active active h = true -> nodup_plan p ->
  si_ok (nth_si p w) = true -> afind h (scr_of (nth_si p w)) = Some cw -> (min_wait <= c_times cw)%N ->
  (forall j c, j <> w -> si_ok (nth_si p j) = true -> afind h (scr_of (nth_si p j)) = Some c -> worse o w cw p j c) ->
  afind h (scr_of (nth_si (gc o active p) w)) = Some cw /\
  forall j, j <> w -> si_ok (nth_si p j) = true -> afind h (scr_of (nth_si (gc o active p) j)) = None.
Proof.
  intros Hact Hnd Hwok Hw Hwt Hbest.
  assert (Gw : afind h (scr_of (nth_si (gc o active p) w)) = Some cw).
  { apply gc_survives; [exact Hnd|exact Hw|]. intros q G.
    destruct (gc_keep o active q w h cw) eqn:E; [reflexivity|exfalso].
    apply gc_keep_false_iff in E. destruct E as [E|J]; [congruence|].
    apply (justified_ge o p q _ _ _ G), justified_worse in J. destruct J as (j & st & Hj & Hok & Hf & _ & Hwo).
    exact (worse_asym o p w cw j st (Hbest j st Hj Hok Hf) Hwo). }
  split; [exact Gw|]. intros j Hj Hok.
  destruct (afind h (scr_of (nth_si (gc o active p) j))) as [c|] eqn:E; [exfalso|reflexivity].
  destruct (gc_kept_passed o active p j h c Hnd Hok E) as (q & G & G' & Hkeep).
  assert (E' : gc_keep o active q j h c = false); [|congruence].
  apply gc_keep_false_iff. right. apply justified_worse. exists w, cw. split; [congruence|].
  split; [now rewrite <- (ge_ok _ _ G)|]. split; [exact (ge_sub _ _ G' _ _ _ Gw)|]. split; [exact Hwt|].
  apply (worse_ge o p q _ _ _ _ G). apply Hbest; [exact Hj|exact Hok|].
  exact (ge_sub _ _ (gc_ge o active p Hnd) _ _ _ E).
Qed.

(* two normal copies: the one on the less loaded shard stays, with equal loads the one on the front shard *)
Theorem gc_resolves_duplicate o active kw kl h cw cl :
  kw <> kl -> is_active active h = true ->
  c_state cw = Normal /\ (min_wait <= c_times cw)%N -> c_state cl = Normal /\ (min_wait <= c_times cl)%N ->
  forall p, nodup_plan p ->
  si_ok (nth_si p kw) = true -> si_ok (nth_si p kl) = true ->
  afind h (scr_of (nth_si p kw)) = Some cw -> afind h (scr_of (nth_si p kl)) = Some cl ->
  (forall j, j <> kw -> j <> kl -> afind h (scr_of (nth_si p j)) = None) ->
  (load_of o (nth_si p kw) < load_of o (nth_si p kl) \/
   (load_of o (nth_si p kw) = load_of o (nth_si p kl) /\ (kw < kl)%nat)) ->
  afind h (scr_of (nth_si (gc o active p) kw)) = Some cw /\ afind h (scr_of (nth_si (gc o active p) kl)) = None.
Proof.
  intros Hne Hact [Hws Hwt] [Hls Hlt] p Hnd Hk Hk' Ew El Ho Hord.
  destruct (gc_leaves_the_best_copy o active kw h cw p Hact Hnd Hk Ew Hwt) as [A B].
  - intros j c Hj Hok Hf. destruct (Nat.eq_dec j kl) as [->|Hjl]; [|rewrite (Ho j Hj Hjl) in Hf; discriminate].
    rewrite El in Hf. injection Hf as <-. split; [exact Hlt|right; split; [congruence|exact Hord]].
  - split; [exact A|apply B; congruence].
Qed.

(* one cycle's garbage collection and recovery pass: the target is on exactly one in-sync shard, in normal state *)
Theorem best_copy_alone_and_normal o active w h cw p :
  is_active active h = true -> nodup_plan p ->
  si_ok (nth_si p w) = true -> afind h (scr_of (nth_si p w)) = Some cw -> (min_wait <= c_times cw)%N ->
  (forall j c, j <> w -> si_ok (nth_si p j) = true -> afind h (scr_of (nth_si p j)) = Some c -> worse o w cw p j c) ->
  let p1 := recover (gc o active p) in
  (exists c', afind h (scr_of (nth_si p1 w)) = Some c' /\ c_state c' = Normal) /\
  forall j, j <> w -> si_ok (nth_si p j) = true -> afind h (scr_of (nth_si p1 j)) = None.
Proof.
  intros Hact Hnd Hwok Hw Hwt Hbest. cbn zeta.
  destruct (gc_leaves_the_best_copy o active w h cw p Hact Hnd Hwok Hw Hwt Hbest) as [Gw Go].
  assert (Hqok : forall j, si_ok (nth_si (gc o active p) j) = si_ok (nth_si p j)).
  { intros j. symmetry. apply (ge_ok _ _ (gc_ge o active p Hnd)). }
  split.
  - rewrite afind_recover, Gw. cbn [option_map]. rewrite Hqok, Hwok. eexists. split; [reflexivity|].
    unfold recovered. destruct (c_state cw) eqn:Es; cbn [tstate_eqb andb]; [exact Es|].
    (* in transfer, and no other in-sync shard has the target any more: put back to normal *)
    assert (Ho : orphan (gc o active p) w h = true).
    { apply orphan_true_iff. intros j Hj Hok. apply Go; [exact Hj|now rewrite <- Hqok]. }
    now rewrite Ho.
  - intros j Hj Hok. now rewrite afind_recover, (Go j Hj Hok).
Qed.

(* the copies of h on the in-sync shards, each with its shard *)
Definition copies (p : plan) (h : N) : list (nat * cstat) :=
  flat_map (fun j => match afind h (scr_of (nth_si p j)) with
                     | Some c => if si_ok (nth_si p j) then [(j, c)] else []
                     | None => []
                     end) (indices p).

Lemma In_copies p h j c :
  In (j, c) (copies p h) <-> si_ok (nth_si p j) = true /\ afind h (scr_of (nth_si p j)) = Some c.
Proof.
  unfold copies. rewrite in_flat_map. split.
  - intros (i & _ & H). destruct (afind h (scr_of (nth_si p i))) as [ci|] eqn:E; [|destruct H].
    destruct (si_ok (nth_si p i)) eqn:Hok; [|destruct H]. destruct H as [[= <- <-]|[]]. now split.
  - intros [Hok Hc]. exists j. split; [now apply In_indices, lt_of_ok|]. rewrite Hc, Hok. now left.
Qed.

(* `worse` is a strict total order on the copies that were scraped often enough: take its least element *)
Lemma best_copy o p h :
  (forall j c, si_ok (nth_si p j) = true -> afind h (scr_of (nth_si p j)) = Some c -> (min_wait <= c_times c)%N) ->
  (exists k c, si_ok (nth_si p k) = true /\ afind h (scr_of (nth_si p k)) = Some c) ->
  exists w cw, si_ok (nth_si p w) = true /\ afind h (scr_of (nth_si p w)) = Some cw /\
    forall j c, j <> w -> si_ok (nth_si p j) = true -> afind h (scr_of (nth_si p j)) = Some c -> worse o w cw p j c.
Proof.
  intros Htimes (k & c & Hkc).
  destruct (least_of_total (fun x y => worse o (fst x) (snd x) p (fst y) (snd y)) (copies p h)) as ([w cw] & Hw & Hleast).
  - intros [i ci] [j cj] Hi Hj. apply In_copies in Hi, Hj. destruct Hi as [Hio Hi], Hj as [Hjo Hj].
    destruct (Nat.eq_dec i j) as [->|E]; [left; congruence|right].
    exact (worse_total o p i ci j cj E (Htimes i ci Hio Hi) (Htimes j cj Hjo Hj)).
  - intros x y z _. apply worse_trans.
  - intros E. apply In_copies in Hkc. rewrite E in Hkc. destruct Hkc.
  - apply In_copies in Hw. exists w, cw. split; [apply Hw|]. split; [apply Hw|].
    intros j cj Hj Hjo Hjf. destruct (Hleast (j, cj)) as [E|R]; [now apply In_copies|congruence|exact R].
Qed.

(* without naming the best copy: whatever the in-sync shards hold of a discovered target, all of it scraped three times -
   duplicates, pending transfers with or without partner - one garbage collection and recovery pass leave it on exactly
   one in-sync shard, in normal state *)
Theorem cleaning_leaves_one_normal_copy o active p h :
  is_active active h = true -> nodup_plan p ->
  (exists k c, si_ok (nth_si p k) = true /\ afind h (scr_of (nth_si p k)) = Some c) ->
  (forall j c, si_ok (nth_si p j) = true -> afind h (scr_of (nth_si p j)) = Some c -> (min_wait <= c_times c)%N) ->
  let p1 := recover (gc o active p) in
  exists w, si_ok (nth_si p w) = true /\
    (exists c', afind h (scr_of (nth_si p1 w)) = Some c' /\ c_state c' = Normal) /\
    forall j, j <> w -> si_ok (nth_si p j) = true -> afind h (scr_of (nth_si p1 j)) = None.
Proof.
  intros Hact Hnd Hex Htimes.
  destruct (best_copy o p h Htimes Hex) as (w & cw & Hwok & Hwf & Hbest).
  exists w. split; [exact Hwok|].
  exact (best_copy_alone_and_normal o active w h cw p Hact Hnd Hwok Hwf (Htimes w cw Hwok Hwf) Hbest).
Qed.

Theorem single_normal_after_gc_and_recovery o i s h :
  NoDupReports i -> is_active (i_active i) h = true ->
  (exists k, insync i k = true /\ In h (akeys (reported i k))) ->
  (forall k c, insync i k = true -> afind h (reported i k) = Some c -> (3 <= c_times c)%N) ->
  let p1 := st_p1 (run_stages o i s) in
  exists w, insync i w = true /\
    (exists c', afind h (scr_of (nth_si p1 w)) = Some c' /\ c_state c' = Normal) /\
    forall j, j <> w -> insync i j = true -> afind h (scr_of (nth_si p1 j)) = None.
Proof.
  intros Hnd Hact [k [Hs Hin]] Htimes. cbn zeta. rewrite stages_p1, stages_p0.
  destruct (cleaning_leaves_one_normal_copy o (i_active i) _ h Hact (nodup_p0 i Hnd)) as (w & Hw & Hc & Ho).
  - apply afind_some_keys in Hin. destruct Hin as [c Hc]. exists k, c. now rewrite nth_si_p0, scr_of_info_at.
  - intros j c Hj Hf. rewrite nth_si_p0 in Hj. rewrite nth_si_p0, scr_of_info_at in Hf. rewrite minwait_is_3. now apply (Htimes j c).
  - rewrite nth_si_p0 in Hw. exists w. split; [exact Hw|]. split; [exact Hc|].
    intros j Hj Hsj. apply Ho; [exact Hj|now rewrite nth_si_p0].
Qed.

(* C05: once the source (in_transfer) and the destination (normal) have both scraped the target three times, garbage
   collection (and the recovery pass) of this very cycle release the source's copy and keep the destination's *)
Theorem handover_completes o i s k k' h tar st :
  NoDupReports i -> k <> k' ->
  insync i k = true -> insync i k' = true ->
  is_active (i_active i) h = true ->
  afind h (reported i k) = Some tar -> c_state tar = InTransfer -> (3 <= c_times tar)%N ->
  afind h (reported i k') = Some st -> c_state st = Normal -> (3 <= c_times st)%N ->
  (forall j, j <> k -> j <> k' -> ~ In h (akeys (reported i j))) ->
  ~ In h (keys_at (st_p1 (run_stages o i s)) k) /\ In h (keys_at (st_p1 (run_stages o i s)) k').
Proof.
  intros Hnd Hne Hs Hs' Hact Et Hts Htt Ed Hds Hdt Hoth.
  rewrite stages_p1, stages_p0. unfold keys_at.
  destruct (best_copy_alone_and_normal o (i_active i) k' h st
              (map (fun sh => fst (get_info sh)) (i_shards i))) as [[c' [Hc' _]] Hnone].
  - exact Hact.
  - now apply nodup_p0.
  - now rewrite nth_si_p0.
  - now rewrite nth_si_p0, scr_of_info_at.
  - now rewrite minwait_is_3.
  - intros j c Hj _ Hf. rewrite nth_si_p0, scr_of_info_at in Hf. destruct (Nat.eq_dec j k) as [->|Hjk].
    + rewrite Et in Hf. injection Hf as <-. split; [now rewrite minwait_is_3|left; auto].
    + exfalso. apply (Hoth j Hjk Hj). apply afind_some_keys. eauto.
  - split; [|apply keys_at_iff; eauto]. apply afind_none_keys, Hnone; [exact Hne|now rewrite nth_si_p0].
Qed.
