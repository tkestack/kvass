(* Proofs/WorldConverge.v — C03, bounded convergence in the regime without relief and without scale-down (alleviation
   disabled, max-idle 0), under EVERY schedule, from ANY world that satisfies WorldNoGap.winv (well-formed sidecars whose
   stores are in step with memory, at most max-shard shards; WorldRecover.v: every step of a faulty history keeps it) and
   whose discovered targets are distinct.
   One shard, normal state: a scrape round makes any world ripe; a fault-free cycle on a ripe world gives a clean world
   (every held target is a discovered one, in normal state, on exactly one shard); so from the second calm round on the
   world is clean, for ever.
   Every eligible target held: sizes stay non-negative (wpos); a cycle places an eligible target nobody holds or the
   replica grows, so after max-shard - shards + 1 rounds it is held or the replica is at max-shard (placed_or_at_cap).
   Both together: converges_in_regime.  A clean world with everything placeable held is settled, and its placement never
   changes again (wclean_settled, converged_stays). *)
From KV Require Import Base.Util Base.AMap Base.Sched Base.Float64 Model.Coordinator Model.CoordCheck Model.Sidecar
  Model.World Proofs.CoordBasics Proofs.CoordC01 Proofs.CoordC07 Proofs.CoordStable Proofs.CoordLive
  Proofs.SidecarProofs Proofs.WorldProofs Proofs.WorldNoGap.
Local Open Scope list_scope.
Local Open Scope Z_scope.

Definition status_at (w : world) (k : nat) : amap sstat := sc_status (ws_sc (nth k (w_shards w) dws)).

Lemma held_iff w h : held w h <-> exists k e, (k < length (w_shards w))%nat /\ afind h (status_at w k) = Some e.
Proof.
  unfold held, holds, status_at. split.
  - intros (k & Hk & Hh). apply afind_some_keys in Hh. destruct Hh as [e He]. eauto.
  - intros (k & e & Hk & He). exists k. split; [exact Hk|]. apply afind_some_keys. eauto.
Qed.

Definition wclean (w : world) : Prop :=
  forall k h e, (k < length (w_shards w))%nat -> afind h (status_at w k) = Some e ->
    ss_state e = Normal /\ In h (w_active w) /\
    forall j, j <> k -> (j < length (w_shards w))%nat -> afind h (status_at w j) = None.

Definition wripe (w : world) : Prop :=
  forall k h e, (k < length (w_shards w))%nat -> afind h (status_at w k) = Some e -> (3 <= ss_times e)%N.

(* the placement: which shard holds which target in which state *)
Definition state_at (w : world) (k : nat) (h : N) : option tstate :=
  match afind h (status_at w k) with Some e => Some (ss_state e) | None => None end.
Definition same_placement (w w' : world) : Prop :=
  length (w_shards w') = length (w_shards w) /\ w_active w' = w_active w /\ forall k h, state_at w' k h = state_at w k h.

Record regime (o : opts) : Prop := {
  rg_noall : disable_alleviate o = true;
  rg_idle : max_idle o = 0;
  rg_proc : 0 < max_proc o;
  rg_mm : min_shard o <= max_shard o;
}.

Lemma status_at_out w k : (length (w_shards w) <= k)%nat -> status_at w k = [].
Proof. intros H. unfold status_at. now rewrite nth_overflow. Qed.

Lemma fresh_status now : sc_status (ws_sc (fresh_shard now)) = [].
Proof. reflexivity. Qed.

Lemma same_placement_trans w1 w2 w3 : same_placement w1 w2 -> same_placement w2 w3 -> same_placement w1 w3.
Proof.
  intros (L1 & A1 & S1) (L2 & A2 & S2). split; [congruence|]. split; [congruence|]. intros k h. now rewrite S2, S1.
Qed.

Lemma wclean_placement w w' : same_placement w w' -> wclean w -> wclean w'.
Proof.
  intros (Hl & Ha & Hs) Hc k h e Hk Hf. rewrite Hl in Hk.
  pose proof (Hs k h) as E. unfold state_at in E. rewrite Hf in E.
  destruct (afind h (status_at w k)) as [e0|] eqn:E0; [|discriminate]. injection E as E.
  destruct (Hc k h e0 Hk E0) as (Hn & Hact & Hoth). split; [congruence|]. split; [now rewrite Ha|].
  intros j Hj Hjl. rewrite Hl in Hjl. pose proof (Hs j h) as Ej. unfold state_at in Ej. rewrite (Hoth j Hj Hjl) in Ej.
  destruct (afind h (status_at w' j)); [discriminate|reflexivity].
Qed.

Lemma held_placement w w' h : same_placement w w' -> held w h -> held w' h.
Proof.
  intros (Hl & _ & Hs). rewrite !held_iff. intros (k & e & Hk & He).
  pose proof (Hs k h) as E. unfold state_at in E. rewrite He in E.
  destruct (afind h (status_at w' k)) as [e'|] eqn:E'; [|discriminate]. exists k, e'. now rewrite Hl.
Qed.

Lemma regime_mode o tru w f sch : regime o -> mode_of o (cycle_input tru w f) (sst_of sch) = MNormal.
Proof.
  intros R. unfold mode_of. cbn [i_scale1_ok cycle_input negb]. rewrite andb_false_r.
  replace (max_proc o =? 0) with false by (symmetry; apply Z.eqb_neq; pose proof (rg_proc o R); lia).
  now rewrite andb_false_r.
Qed.

Lemma regime_main o tru w f sch : regime o ->
  o_skipped (cycle o (cycle_input tru w f) sch) = false /\ o_divzero (cycle o (cycle_input tru w f) sch) = false /\
  o_scales (cycle o (cycle_input tru w f) sch) <> [].
Proof.
  intros R. rewrite o_skipped_cycle, o_divzero_cycle, o_scales_cycle, (regime_mode o tru w f sch R).
  repeat split. intros H. apply app_eq_nil in H. destruct H as [_ H]. discriminate.
Qed.

Lemma regime_last_scale o tru w f sch : regime o ->
  last (o_scales (cycle o (cycle_input tru w f) sch)) 0 = clamp o (st_scale (run_stages o (cycle_input tru w f) (sst_of sch))).
Proof. intros R. rewrite o_scales_cycle, (regime_mode o tru w f sch R). apply last_last. Qed.

Lemma cycle_shards_regime o tru w f sch : regime o -> Z.of_nat (length (w_shards w)) <= max_shard o ->
  let out := cycle o (cycle_input tru w f) sch in
  exists m, w_shards (model_cycle o tru w f sch) =
            zip_posts tru 0 (w_shards w) (o_posts out) w f ++ repeat (fresh_shard (w_now w)) m.
Proof.
  intros R Hl. apply apply_cycle_grows. intros r Hr. rewrite <- (inputs_length tru w f) in *.
  apply (c07_no_shrink o _ sch r Hl Hr). left. apply (rg_idle o R).
Qed.

Lemma shard_cycle_regime o tru w f sch k : regime o -> Z.of_nat (length (w_shards w)) <= max_shard o ->
  let s' := nth k (w_shards (model_cycle o tru w f sch)) dws in
  if Nat.ltb k (length (w_shards w))
  then s' = after_cycle_shard tru w f k (nth k (w_shards w) dws) (nth k (o_posts (cycle o (cycle_input tru w f) sch)) None)
  else exists t, s' = fresh_shard t.
Proof.
  intros R Hl. cbn zeta. destruct (cycle_shards_regime o tru w f sch R Hl) as [m ->].
  set (z := zip_posts _ _ _ _ _ _). assert (Hzl : length z = length (w_shards w)) by apply zip_length.
  destruct (Nat.ltb_spec k (length (w_shards w))) as [Hk|Hk].
  - rewrite app_nth1 by lia. unfold z. now rewrite nth_zip by exact Hk.
  - rewrite app_nth2 by lia.
    destruct (nth_in_or_default (k - length z) (repeat (fresh_shard (w_now w)) m) dws) as [Hin| ->]; [|now exists 0].
    apply repeat_spec in Hin. eauto.
Qed.

Lemma status_cycle_regime o tru w f sch : regime o -> Z.of_nat (length (w_shards w)) <= max_shard o ->
  forall k, status_at (model_cycle o tru w f sch) k =
    if Nat.ltb k (length (w_shards w))
    then sc_status (ws_sc (after_cycle_shard tru w f k (nth k (w_shards w) dws)
                             (nth k (o_posts (cycle o (cycle_input tru w f) sch)) None)))
    else [].
Proof.
  intros R Hl k. unfold status_at. pose proof (shard_cycle_regime o tru w f sch k R Hl) as H. cbn zeta in H.
  destruct (Nat.ltb k (length (w_shards w))); [now rewrite H|]. destruct H as [t ->]. reflexivity.
Qed.

Theorem ripe_cycle_wclean o tru w sch :
  regime o -> winv o w -> NoDup (w_active w) -> wripe w -> wclean (model_cycle o tru w no_faults sch).
Proof.
  intros R [Hw _ Hl] Hnda Hripe.
  destruct (regime_main o tru w no_faults sch R) as (Hsk & Hdz & _).
  pose proof (ripe_world_becomes_clean o tru w sch Hw (rg_idle o R) Hnda Hripe (or_introl (rg_noall o R)) Hsk Hdz) as Hc.
  cbn zeta in Hc. pose proof (status_cycle_regime o tru w no_faults sch R Hl) as Hst.
  intros k h e _ Hf. rewrite (Hst k) in Hf.
  destruct (Nat.ltb_spec k (length (w_shards w))) as [Hk|Hk]; [|discriminate].
  destruct (Hc k h e Hk Hf) as (Hn & Hact & Hoth).
  split; [exact Hn|]. split; [exact Hact|].
  intros j Hj _. rewrite (Hst j). destruct (Nat.ltb_spec j (length (w_shards w))) as [Hjn|Hjn]; [now apply Hoth|reflexivity].
Qed.

Lemma status_scrape tru n w k : status_at (lstep_det tru w (LScrapeAll n)) k = sc_status (ws_sc (scrape_shard tru n (nth k (w_shards w) dws))).
Proof.
  destruct (Nat.lt_ge_cases k (length (w_shards w))) as [Hk|Hk].
  - unfold status_at. now rewrite nth_lstep_det.
  - rewrite status_at_out by now rewrite lstep_det_length. now rewrite nth_overflow.
Qed.

Lemma scrape_shard_state tru n s h :
  option_map ss_state (afind h (sc_status (ws_sc (scrape_shard tru n s)))) = option_map ss_state (afind h (sc_status (ws_sc s))).
Proof.
  apply (scrape_shard_inv (fun sc => option_map ss_state (afind h (sc_status sc)) = _)); [|reflexivity].
  intros sc h' <-. rewrite do_scrape_entry. destruct (afind h (sc_status sc)) as [e|]; [|reflexivity]. cbn.
  destruct (N.eqb h' h); [|reflexivity]. now destruct (scrape_status_spec e (scrape_result_of tru h') false) as (_ & -> & _).
Qed.

Lemma scrape_same_placement tru w n : same_placement w (lstep_det tru w (LScrapeAll n)).
Proof.
  split; [apply lstep_det_length|]. split; [reflexivity|]. intros k h. unfold state_at. rewrite status_scrape.
  apply scrape_shard_state.
Qed.

Theorem scrape_makes_ripe tru w n : wwf w -> (3 <= n)%nat -> wripe (lstep_det tru w (LScrapeAll n)).
Proof.
  intros Hw Hn k h e _ Hf. rewrite status_scrape in Hf.
  destruct (afind h (sc_status (ws_sc (nth k (w_shards w) dws)))) as [e0|] eqn:E0.
  - destruct (scrape_round_counts tru n _ h e0 (wf_at w k Hw) E0) as (e' & He' & Ht & _). rewrite Hf in He'.
    injection He' as <-. lia.
  - pose proof (scrape_shard_state tru n (nth k (w_shards w) dws) h) as H. rewrite Hf, E0 in H. discriminate.
Qed.

(* a calm round: a fault-free cycle (any schedule), three scrapes of everything, a tick *)
Definition calm_round_with (o : opts) (tru : amap truth) (w : world) (sch : list nat) : world :=
  lstep_det tru (lstep_det tru (model_cycle o tru w no_faults sch) (LScrapeAll 3)) (LTick 400).

Lemma active_cycle o tru w f sch : w_active (model_cycle o tru w f sch) = w_active w.
Proof. reflexivity. Qed.

Lemma round_active o tru w sch : w_active (calm_round_with o tru w sch) = w_active w.
Proof. reflexivity. Qed.

Lemma round_winv o tru w sch : regime o -> winv o w -> winv o (calm_round_with o tru w sch).
Proof.
  intros R Hi. unfold calm_round_with. apply winv_det, winv_det. apply winv_cycle; [apply (rg_mm o R)|exact Hi].
Qed.

Lemma round_ripe o tru w sch : regime o -> winv o w -> wripe (calm_round_with o tru w sch).
Proof.
  intros R Hi. unfold calm_round_with. apply (scrape_makes_ripe tru _ 3); [|lia].
  apply (wi_wf o). apply winv_cycle; [apply (rg_mm o R)|exact Hi].
Qed.

(* the scrapes of a round change no placement, and its tick moves only the clock, which no placement reads *)
Lemma round_same_placement o tru w sch : same_placement (model_cycle o tru w no_faults sch) (calm_round_with o tru w sch).
Proof. exact (scrape_same_placement tru (model_cycle o tru w no_faults sch) 3). Qed.

Lemma round_clean o tru w sch : regime o -> winv o w -> NoDup (w_active w) -> wripe w -> wclean (calm_round_with o tru w sch).
Proof.
  intros R Hi Hnd Hr. apply (wclean_placement _ _ (round_same_placement o tru w sch)). now apply ripe_cycle_wclean.
Qed.

(* from any world that satisfies winv, after the first calm round the world is ripe, after the second it is clean, and it stays
   clean for every further round — whatever schedule each cycle follows *)
Theorem clean_from_the_second_round o tru w schs :
  regime o -> winv o w -> NoDup (w_active w) -> (2 <= length schs)%nat ->
  wclean (fold_left (calm_round_with o tru) schs w).
Proof.
  intros R Hi Hnd Hlen.
  (* the last round starts from a world that a round before it has made ripe *)
  destruct (exists_last (l := schs)) as [l [s2 ->]]; [now destruct schs|].
  destruct (exists_last (l := l)) as [l' [s1 ->]]; [destruct l; [cbn in Hlen; lia|discriminate]|].
  rewrite !fold_left_app. cbn [fold_left].
  assert (Hi' : winv o (fold_left (calm_round_with o tru) l' w) /\ NoDup (w_active (fold_left (calm_round_with o tru) l' w))).
  { apply (fold_left_inv _ (fun w => winv o w /\ NoDup (w_active w))); [now split|].
    intros w0 s [H1 H2]. split; [now apply round_winv | exact H2]. }
  destruct Hi' as [Hi' Hnd']. apply round_clean; [exact R | now apply round_winv | exact Hnd' | now apply round_ripe].
Qed.

Lemma round53_nonneg p e : 0 <= p -> 0 <= fst (round53 p e).
Proof.
  intros Hp. unfold round53. destruct (_ <=? 53); cbn [fst]; [exact Hp|].
  assert (0 <= Z.shiftr p (Z.log2 p + 1 - 53)) by (apply Z.shiftr_nonneg; exact Hp).
  destruct (_ || _); lia.
Qed.
Lemma trunc2_nonneg q e : 0 <= q -> 0 <= trunc2 q e.
Proof. intros H. unfold trunc2. destruct (0 <=? e); [now apply Z.shiftl_nonneg|now apply Z.shiftr_nonneg]. Qed.
Lemma div_round_nonneg t n : 0 <= div_round t n.
Proof.
  unfold div_round. destruct (_ || _) eqn:E; [lia|]. apply orb_false_iff in E. destruct E as [Ht Hn].
  apply Z.leb_gt in Ht. apply Z.leb_gt in Hn.
  match goal with |- context [round53 ?a ?b] => pose proof (round53_nonneg a b) as H; destruct (round53 a b) as [q e'] end.
  cbn [fst] in H. apply trunc2_nonneg. apply H.
  assert (0 <= Z.shiftl t 120 / n) by (apply Z.div_pos; [apply Z.shiftl_nonneg; lia|lia]).
  destruct (_ =? 0); lia.
Qed.

Definition spos (e : sstat) : Prop := 0 <= ss_series e /\ 0 <= ss_total e.
Definition mpos (m : amap sstat) : Prop := forall h e, afind h m = Some e -> spos e.
Definition tpos (tru : amap truth) : Prop := forall h, 0 <= tr_series (truth_of tru h) /\ 0 <= tr_total (truth_of tru h).
Definition wpos (w : world) : Prop := forall k, mpos (status_at w k).

Lemma scrape_status_pos e r stopped : spos e -> match r with ScrOk _ t => 0 <= t | ScrFail => True end -> spos (scrape_status e r stopped).
Proof.
  intros [H1 H2] Hr. destruct r as [sc t|]; unfold spos; cbn; [|auto]. split; [apply div_round_nonneg|exact Hr].
Qed.

Lemma do_scrape_pos sc h r stopped : mpos (sc_status sc) -> match r with ScrOk _ t => 0 <= t | ScrFail => True end ->
  mpos (sc_status (do_scrape sc h r stopped)).
Proof.
  intros Hm Hr h' e Hf. rewrite do_scrape_entry in Hf.
  destruct (afind h' (sc_status sc)) as [e0|] eqn:E; [|discriminate]. injection Hf as <-. apply Hm in E.
  destruct (N.eqb h h'); [now apply scrape_status_pos | exact E].
Qed.

Lemma scrape_shard_pos tru n s : tpos tru -> mpos (sc_status (ws_sc s)) -> mpos (sc_status (ws_sc (scrape_shard tru n s))).
Proof.
  intros Ht. apply (scrape_shard_inv (fun sc => mpos (sc_status sc))). intros sc h Hm.
  apply do_scrape_pos; [exact Hm|]. unfold scrape_result_of. cbn zeta. destruct (tr_healthy _); [apply Ht|exact I].
Qed.

Lemma update_status_pos old req : NoDup (hashes req) -> mpos old ->
  (forall t, In t (all_targets req) -> 0 <= t_series t /\ 0 <= t_total t) -> mpos (update_status old req).
Proof.
  intros Hnd Hold Ht h e Hf. apply update_status_find in Hf; [|exact Hnd]. destruct Hf as [t [Hin [_ ->]]].
  unfold entry_for, spos. cbn [ss_series ss_total].
  destruct (afind (t_hash t) old) as [e0|] eqn:E; [apply (Hold _ _ E)|cbn; now apply Ht].
Qed.

Lemma fresh_pos now : mpos (sc_status (ws_sc (fresh_shard now))).
Proof. intros h e H. discriminate. Qed.

Lemma input_pos tru w f : tpos tru -> wpos w ->
  let i := cycle_input tru w f in
  (forall k h c, afind h (reported i k) = Some c -> cpos c) /\ (forall h c, afind h (i_explore i) = Some c -> cpos c).
Proof.
  intros Ht Hp. cbn zeta. split.
  - intros k h c Hc. rewrite (reported_world tru w f k dws) in Hc. destruct (_ && _); [|discriminate].
    rewrite (afind_map (fun _ => cstat_of)) in Hc.
    destruct (afind h (sc_status (ws_sc (nth k (w_shards w) dws)))) as [e|] eqn:Ee; [|discriminate].
    injection Hc as <-. apply (Hp k h e Ee).
  - intros h c Hc. rewrite explore_world in Hc. destruct (existsb _ _); [|discriminate]. injection Hc as <-.
    destruct (tr_healthy _); unfold cpos; cbn; [apply Ht|lia].
Qed.

Lemma post_body_pos o tru w f sch k body : regime o -> wwf w -> tpos tru -> wpos w ->
  nth k (o_posts (cycle o (cycle_input tru w f) sch)) None = Some body ->
  body_unique body /\ forall t, In t (all_targets (request_of tru body)) -> 0 <= t_series t /\ 0 <= t_total t.
Proof.
  intros R Hw Ht Hp Eb. set (i := cycle_input tru w f) in *.
  pose proof (nodup_reports_world tru w f Hw) as Hnd. fold i in Hnd.
  split; [exact (post_unique o i sch k body Hnd Eb)|].
  destruct (post_some o i sch k body Eb) as (_ & -> & _).
  intros t Hin. apply In_request_of in Hin. destruct Hin as [p [<- Hin]]. cbn [mk_tgt t_series t_total]. split.
  - (* the size in the update is the planned entry's *)
    unfold new_targets in Hin. apply in_flat_map in Hin. destruct Hin as [[h c] [Hin Hp']]. cbn [fst snd] in Hp'.
    destruct (afind h (i_active i)); [|destruct Hp']. destruct Hp' as [<-|[]]. cbn [pt_series].
    destruct (input_pos tru w f Ht Hp) as [Hrep Hexp].
    assert (Hf : afind h (scr_of (nth_si (final_plan o i sch) k)) = Some c)
      by (apply In_afind_nodup; [apply (stages_nodup o i (sst_of sch) Hnd) | exact Hin]).
    unfold final_plan in Hf. rewrite (stages_p4_noidle o i _ (rg_idle o R)) in Hf.
    apply (p3_pos o i (sst_of sch) Hnd Hrep Hexp k h c (rg_noall o R) Hf).
  - destruct (tr_healthy _); [apply Ht|lia].
Qed.

Theorem cycle_keeps_pos o tru w sch : regime o -> winv o w -> tpos tru -> wpos w -> wpos (model_cycle o tru w no_faults sch).
Proof.
  intros R [Hw _ Hl] Ht Hp k. rewrite (status_cycle_regime o tru w no_faults sch R Hl).
  destruct (Nat.ltb_spec k (length (w_shards w))) as [Hk|Hk]; [|intros h e H; discriminate].
  apply (after_cycle_sc_inv (fun sc => mpos (sc_status sc))); [apply Hp|]. intros body Eb.
  destruct (post_body_pos o tru w no_faults sch k body R Hw Ht Hp Eb) as [Hu Htg].
  rewrite do_update_status. apply update_status_pos; [now apply request_unique | apply Hp | exact Htg].
Qed.

Theorem scrape_keeps_pos tru w n : tpos tru -> wpos w -> wpos (lstep_det tru w (LScrapeAll n)).
Proof. intros Ht Hp k. rewrite status_scrape. apply scrape_shard_pos; [exact Ht|apply Hp]. Qed.

Definition probe (tru : amap truth) (h : N) : cstat :=
  {| c_state := Normal; c_health := Good; c_series := tr_series (truth_of tru h); c_total := tr_total (truth_of tru h); c_times := 0 |}.
(* a target the coordinator may place: its probe succeeds, it has samples, and it fits into an empty shard *)
Definition eligible (o : opts) (tru : amap truth) (h : N) : Prop :=
  tr_healthy (truth_of tru h) = true /\ is_too_big o (probe tru h) = false /\
  (0 < tr_series (truth_of tru h) \/ 0 < tr_total (truth_of tru h)).

Lemma afind_p0_calm o tru w s k h :
  afind h (scr_of (nth_si (st_p0 (run_stages o (cycle_input tru w no_faults) s)) k)) =
  option_map cstat_of (afind h (status_at w k)).
Proof. rewrite stages_p0, nth_si_p0, scr_of_info_at. apply afind_reported_calm. Qed.

Lemma global_status_unheld o tru w s h : In h (w_active w) -> (forall k, afind h (status_at w k) = None) ->
  let i := cycle_input tru w no_faults in
  global_status (i_explore i) (st_p0 (run_stages o i s)) h =
  if tr_healthy (truth_of tru h) then probe tru h
  else {| c_state := Normal; c_health := Bad; c_series := 0; c_total := 0; c_times := 0 |}.
Proof.
  intros Hact Hnone. cbn zeta. unfold global_status.
  destruct (first_known _ h) as [c|] eqn:E.
  - destruct (first_known_entry _ h c E) as [k [_ Hf]]. rewrite afind_p0_calm, Hnone in Hf. discriminate.
  - rewrite explore_world. now rewrite (proj2 (existsb_eqb_in h _) Hact).
Qed.

Theorem cycle_places_or_grows o tru w sch h :
  regime o -> 0 <= max_head o -> winv o w -> tpos tru -> wpos w ->
  In h (w_active w) -> eligible o tru h ->
  (forall k, afind h (status_at w k) = None) ->
  Z.of_nat (length (w_shards w)) < max_shard o ->
  held (model_cycle o tru w no_faults sch) h \/
  (length (w_shards w) + 1 <= length (w_shards (model_cycle o tru w no_faults sch)))%nat.
Proof.
  intros R Hmh [Hw _ Hl] Ht Hp Hact (Hhealthy & Hfit & Hsize) Hnone Hroom.
  set (i := cycle_input tru w no_faults). set (S := run_stages o i (sst_of sch)).
  destruct (regime_main o tru w no_faults sch R) as (Hsk & Hdz & Hsc).
  pose proof (nodup_reports_world tru w no_faults Hw) as Hnd.
  destruct (input_pos tru w no_faults Ht Hp) as [Hrep Hexp]. fold i in Hrep, Hexp, Hnd.
  assert (Hg : global_status (i_explore i) (st_p0 S) h = probe tru h).
  { unfold S, i. rewrite (global_status_unheld o tru w _ h Hact Hnone). now rewrite Hhealthy. }
  destruct (p3_calm o tru w sch (rg_idle o R)) as [Hl3 Hok3]. fold i S in Hl3, Hok3.
  assert (Hacti : In h (akeys (i_active i))) by (unfold i; now rewrite active_keys_world).
  assert (Hunplanned : existsb (fun si => amem h (scr_of si)) (st_p2 S) = false).
  { (* nobody plans it when assignment starts: nobody reported it, and cleaning adds nothing *)
    unfold S. rewrite stages_p2, (alleviate_calm o _ _ (or_introl (rg_noall o R))). cbn [fst]. rewrite stages_p1.
    apply existsb_false. intros si Hin. destruct (In_nth _ _ dflt Hin) as [k [Hk <-]]. rewrite <- nth_si_eq.
    unfold amem. destruct (afind h (scr_of (nth_si _ k))) as [c|] eqn:Ec; [exfalso|reflexivity].
    rewrite afind_recover in Ec. destruct (afind h (scr_of (nth_si (gc _ _ _) k))) as [c0|] eqn:H0; [|discriminate].
    apply (ge_sub _ _ (gc_ge o (i_active i) (st_p0 (run_stages o i (sst_of sch))) (nodup_p0 i Hnd))) in H0.
    unfold i in H0. rewrite afind_p0_calm, Hnone in H0. discriminate. }
  assert (Hallok : Forall (fun s => si_ok s = true) (st_p3 S)).
  { apply Forall_forall. intros si Hin. destruct (In_nth _ _ dflt Hin) as [k [Hk <-]]. rewrite <- nth_si_eq.
    apply Hok3. now rewrite <- Hl3. }
  pose proof (place_or_grow o i (sst_of sch) h (rg_proc o R) Hmh (global_pos i Hrep Hexp) Hacti Hunplanned) as Hpg.
  fold S in Hpg. rewrite Hg, Hl3 in Hpg.
  (* what is left to show of h is its eligibility *)
  destruct (Hpg eq_refl Hfit Hsize Hallok Hroom) as [Hev|Hgrow].
  - (* placed: the plan has it, so the sidecar holds it after the cycle *)
    left. unfold S in Hev. rewrite stages_ev_b in Hev. unfold assign_of in Hev.
    apply assign_event_placed in Hev. destruct Hev as [j [Hj Hhas]].
    change (has (st_p3 S) j h) in Hhas. change (j < length (st_p3 S))%nat in Hj.
    rewrite Hl3 in Hj. apply has_iff, keys_at_iff in Hhas. destruct Hhas as [c Ec].
    destruct (post_main o i sch j Hsk Hdz) as [_ Hplan].
    destruct (proj2 (world_follows_plan o tru w sch j h (c_state c) Hw Hj Hsk Hdz)) as [e [He _]].
    { exists c. fold i. rewrite Hplan. unfold final_plan. rewrite (stages_p4_noidle o i _ (rg_idle o R)).
      split; [exact Ec|]. split; [reflexivity|]. now apply active_world. }
    destruct (cycle_shards_regime o tru w no_faults sch R Hl) as [m Hnew].
    apply held_iff. exists j, e. split.
    + rewrite Hnew, app_length, zip_length. lia.
    + rewrite (status_cycle_regime o tru w no_faults sch R Hl). destruct (Nat.ltb_spec j (length (w_shards w))) as [_|Hge]; [exact He|lia].
  - (* not placed: the replica is asked to grow, and does *)
    right. unfold model_cycle. rewrite apply_cycle_length.
    destruct (o_scales (cycle o (cycle_input tru w no_faults) sch)) as [|x r] eqn:E; [congruence|].
    rewrite <- E, (regime_last_scale o tru w no_faults sch R). fold i S. lia.
Qed.

Lemma round_pos o tru w sch : regime o -> winv o w -> tpos tru -> wpos w -> wpos (calm_round_with o tru w sch).
Proof. intros R Hi Ht Hp. unfold calm_round_with. apply scrape_keeps_pos; [exact Ht|]. now apply cycle_keeps_pos. Qed.

Lemma round_len_cycle o tru w sch :
  length (w_shards (calm_round_with o tru w sch)) = length (w_shards (model_cycle o tru w no_faults sch)).
Proof. unfold calm_round_with. now rewrite !lstep_det_length. Qed.

Lemma round_len o tru w sch : regime o -> winv o w ->
  (length (w_shards w) <= length (w_shards (calm_round_with o tru w sch)))%nat.
Proof.
  intros R Hi. rewrite round_len_cycle.
  destruct (cycle_shards_regime o tru w no_faults sch R (wi_len o w Hi)) as [m Hnew]. rewrite Hnew, app_length, zip_length. lia.
Qed.

Lemma round_held o tru w sch h : regime o -> winv o w ->
  held (model_cycle o tru w no_faults sch) h -> held (calm_round_with o tru w sch) h.
Proof.
  intros R Hi Hh. unfold calm_round_with.
  assert (Hi1 : winv o (model_cycle o tru w no_faults sch)) by (apply winv_cycle; [apply (rg_mm o R)|exact Hi]).
  apply (held_det o); [now apply winv_det|]. now apply (held_det o).
Qed.

Lemma rounds_inv o tru : regime o -> tpos tru -> forall schs w, winv o w -> wpos w ->
  winv o (fold_left (calm_round_with o tru) schs w) /\ wpos (fold_left (calm_round_with o tru) schs w) /\
  w_active (fold_left (calm_round_with o tru) schs w) = w_active w /\
  (length (w_shards w) <= length (w_shards (fold_left (calm_round_with o tru) schs w)))%nat.
Proof.
  intros R Ht schs w Hi Hp.
  apply (fold_left_inv _ (fun w' => winv o w' /\ wpos w' /\ w_active w' = w_active w /\
                                    (length (w_shards w) <= length (w_shards w'))%nat)); [auto|].
  intros w' s (A & B & C & D). split; [now apply round_winv|]. split; [now apply round_pos|]. split; [exact C|].
  pose proof (round_len o tru w' s R A). lia.
Qed.

Lemma rounds_held o tru h : regime o -> forall schs w, winv o w -> In h (w_active w) -> held w h ->
  held (fold_left (calm_round_with o tru) schs w) h.
Proof.
  intros R schs w Hi Hact Hh.
  apply (fold_left_inv _ (fun w' => winv o w' /\ In h (w_active w') /\ held w' h)); [auto|].
  intros w' s (A & B & C). split; [now apply round_winv|]. split; [exact B|].
  apply round_held; auto. apply cycle_no_gap; [apply (wi_wf o w' A) | apply (wi_len o w' A) | exact B | exact C].
Qed.

Lemma held_dec w h : held w h \/ forall k, afind h (status_at w k) = None.
Proof.
  destruct (existsb (fun s => amem h (sc_status (ws_sc s))) (w_shards w)) eqn:H; [left|right].
  - apply existsb_exists in H. destruct H as [s [Hin Hm]]. destruct (In_nth _ _ dws Hin) as [k [Hk Hnth]].
    exists k. split; [exact Hk|]. rewrite Hnth. unfold holds. now apply amem_keys.
  - intros k. unfold status_at. destruct (nth_in_or_default k (w_shards w) dws) as [Hin| ->]; [|reflexivity].
    apply (proj1 (existsb_false _ _) H) in Hin. unfold amem in Hin. now destruct (afind h _).
Qed.

(* every eligible discovered target is on a shard after at most (max-shard - current shards) + 1 calm rounds, unless the
   replica has reached max-shard — from any world that satisfies winv and wpos, under every schedule in every cycle *)
Theorem placed_or_at_cap o tru h : regime o -> 0 <= max_head o -> tpos tru -> eligible o tru h ->
  forall schs w, winv o w -> wpos w -> In h (w_active w) ->
  (Z.to_nat (max_shard o - Z.of_nat (length (w_shards w))) < length schs)%nat ->
  let w' := fold_left (calm_round_with o tru) schs w in
  held w' h \/ Z.of_nat (length (w_shards w')) = max_shard o.
Proof.
  intros R Hmh Ht He. induction schs as [|s r IH]; intros w Hi Hp Hact Hlen; cbn zeta; [cbn in Hlen; lia|].
  cbn [fold_left]. cbn [length] in Hlen.
  pose proof (round_winv o tru w s R Hi) as Hi1. pose proof (round_pos o tru w s R Hi Ht Hp) as Hp1.
  destruct (rounds_inv o tru R Ht r _ Hi1 Hp1) as (Hir & _ & _ & Hlr).
  pose proof (round_len o tru w s R Hi) as Hl1.
  destruct (held_dec w h) as [Eh|Eh].
  - left. now apply (rounds_held o tru h R (s :: r) w Hi Hact).
  - destruct (Z.eq_dec (Z.of_nat (length (w_shards w))) (max_shard o)) as [Hcap|Hnc].
    + right. pose proof (wi_len o _ Hir). lia.
    + pose proof (wi_len o w Hi) as Hle.
      destruct (cycle_places_or_grows o tru w s h R Hmh Hi Ht Hp Hact He Eh) as [Hheld|Hgrow]; [lia| |].
      * left. apply (rounds_held o tru h R r _ Hi1 Hact). now apply round_held.
      * rewrite <- (round_len_cycle o tru w s) in Hgrow.
        apply (IH _ Hi1 Hp1 Hact). lia.
Qed.

(* both halves together: after enough calm rounds the world is clean and every eligible target is held (so: by exactly one
   shard, in normal state) unless max-shard is reached *)
Theorem converges_in_regime o tru schs w : regime o -> 0 <= max_head o -> tpos tru ->
  winv o w -> wpos w -> NoDup (w_active w) ->
  (2 <= length schs)%nat -> (Z.to_nat (max_shard o - Z.of_nat (length (w_shards w))) < length schs)%nat ->
  let w' := fold_left (calm_round_with o tru) schs w in
  wclean w' /\
  forall h, In h (w_active w) -> eligible o tru h ->
    Z.of_nat (length (w_shards w')) = max_shard o \/
    exists k, (k < length (w_shards w'))%nat /\
      (exists e, afind h (status_at w' k) = Some e /\ ss_state e = Normal) /\
      forall j, j <> k -> (j < length (w_shards w'))%nat -> afind h (status_at w' j) = None.
Proof.
  intros R Hmh Ht Hi Hp Hnd H2 Hlen. cbn zeta.
  pose proof (clean_from_the_second_round o tru w schs R Hi Hnd H2) as Hc. split; [exact Hc|].
  intros h Hact He. destruct (placed_or_at_cap o tru h R Hmh Ht He schs w Hi Hp Hact Hlen) as [Hheld|Hcap]; [|now left].
  apply held_iff in Hheld. destruct Hheld as (k & e & Hk & Hf). right. exists k. split; [exact Hk|].
  destruct (Hc k h e Hk Hf) as (Hn & _ & Hoth). split; [eauto|exact Hoth].
Qed.

(* a clean world in which every discovered target is held, or cannot be placed at all (its probe fails, or it is larger than
   a shard), is settled: the next cycle changes nothing (settled_world_unchanged) *)
Definition all_held_or_unplaceable (o : opts) (tru : amap truth) (w : world) : Prop :=
  forall h, In h (w_active w) -> held w h \/ tr_healthy (truth_of tru h) = false \/ is_too_big o (probe tru h) = true.

Theorem wclean_settled o tru w : regime o -> winv o w -> min_shard o <= Z.of_nat (length (w_shards w)) ->
  wclean w -> all_held_or_unplaceable o tru w -> settled o (cycle_input tru w no_faults).
Proof.
  intros R [Hw _ Hl] Hmin Hc Hall. set (i := cycle_input tru w no_faults).
  pose proof (nodup_p0 i (nodup_reports_world tru w no_faults Hw)) as Hnd0.
  set (p0 := map (fun sh => fst (get_info sh)) (i_shards i)) in *.
  assert (Hl0 : length p0 = length (w_shards w)) by (unfold p0; rewrite map_length; apply inputs_length).
  (* what the coordinator starts from is what the sidecars hold *)
  pose proof (afind_p0_calm o tru w (sst_of [])) as Hfind. rewrite stages_p0 in Hfind. fold i p0 in Hfind.
  constructor; fold p0.
  - constructor.
    + intros k Hk. rewrite Hl0 in Hk. pose proof (insync_nofaults tru w k Hk) as Hsy. fold i in Hsy.
      unfold p0. rewrite nth_si_p0, scr_of_info_at. split; [exact Hsy|].
      unfold reported, info_at, i. rewrite si_scr_get_info, (shard_at_world tru w no_faults k dws Hk). reflexivity.
    + intros k [h c] Hin. cbn [fst snd]. apply (In_afind_nodup _ _ _ (Hnd0 k)) in Hin. rewrite Hfind in Hin.
      destruct (afind h (status_at w k)) as [e|] eqn:Ee; [|discriminate]. injection Hin as <-.
      destruct (Hc k h e (entry_lt w k h e Ee) Ee) as (Hn & Hact & _). split; [now apply active_world | exact Hn].
    + intros k j h Hne Hin. apply afind_some_keys in Hin. destruct Hin as [c Hf]. rewrite Hfind in Hf. rewrite Hfind.
      destruct (afind h (status_at w k)) as [e|] eqn:Ee; [|discriminate].
      destruct (Nat.lt_ge_cases j (length (w_shards w))) as [Hj|Hj]; [|now rewrite status_at_out].
      destruct (Hc k h e (entry_lt w k h e Ee) Ee) as (_ & _ & Hoth). now rewrite (Hoth j (not_eq_sym Hne) Hj).
  - left. apply (rg_noall o R).
  - intros h Hin. unfold i in Hin. rewrite active_keys_world in Hin. destruct (held_dec w h) as [Eh|Hnone].
    + left. apply held_iff in Eh. destruct Eh as (k & e & _ & He).
      apply (amem_existsb h p0 k), keys_at_iff. exists (cstat_of e). now rewrite Hfind, He.
    + (* held nowhere: its status is its probe's, and the premise says the probe fails or is too large *)
      right. unfold p0, i.
      rewrite <- (stages_p0 o _ (sst_of [])), (global_status_unheld o tru w _ h Hin Hnone).
      destruct (Hall h Hin) as [Hh|[Hun|Hun]].
      * apply held_iff in Hh. destruct Hh as (k & e & _ & He). rewrite Hnone in He. discriminate.
      * rewrite Hun. now left.
      * destruct (tr_healthy (truth_of tru h)); [now right|now left].
  - apply (rg_idle o R).
  - unfold i. rewrite inputs_length. split; [exact Hmin|exact Hl].
Qed.

Theorem settled_round_same_placement o tru w sch : regime o -> winv o w -> min_shard o <= Z.of_nat (length (w_shards w)) ->
  wclean w -> all_held_or_unplaceable o tru w -> same_placement w (calm_round_with o tru w sch).
Proof.
  intros R Hi Hmin Hc Hall. pose proof (wclean_settled o tru w R Hi Hmin Hc Hall) as Hset.
  destruct (settled_world_unchanged o tru w sch (wi_wf o w Hi) Hset) as [Hl Hsame]. cbn zeta in Hl, Hsame.
  apply (same_placement_trans _ (model_cycle o tru w no_faults sch)); [|apply round_same_placement].
  split; [exact Hl|]. split; [reflexivity|]. intros k h. unfold state_at.
  destruct (Nat.lt_ge_cases k (length (w_shards w))) as [Hk|Hk].
  - unfold status_at. now rewrite Hsame.
  - now rewrite !status_at_out by (rewrite ?Hl; exact Hk).
Qed.

(* the converged placement never changes again, whatever schedule each later round follows *)
Theorem converged_stays o tru : regime o -> forall schs w, winv o w -> min_shard o <= Z.of_nat (length (w_shards w)) ->
  wclean w -> all_held_or_unplaceable o tru w -> same_placement w (fold_left (calm_round_with o tru) schs w).
Proof.
  intros R. induction schs as [|s r IH]; intros w Hi Hmin Hc Hall; cbn [fold_left].
  - split; [reflexivity|]. split; reflexivity.
  - pose proof (settled_round_same_placement o tru w s R Hi Hmin Hc Hall) as H1.
    apply (same_placement_trans _ _ _ H1). destruct H1 as (L1 & A1 & S1). apply IH.
    + now apply round_winv.
    + now rewrite L1.
    + apply (wclean_placement w); [|exact Hc]. now split.
    + intros h Hin. rewrite A1 in Hin. destruct (Hall h Hin) as [Hh|Hun]; [left|now right].
      apply (held_placement w); [now split | exact Hh].
Qed.
