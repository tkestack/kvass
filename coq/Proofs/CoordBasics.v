(* Proofs/CoordBasics.v — the functions of Model/Coordinator.v as equations: what getShardInfos, gcTargets,
   recoverOrphanTransfers and transferTarget do to one shard of a plan, what justifies a deletion by gc (and the two
   states the original code could not leave: an orphaned transfer, a duplicate on equally loaded shards), which targets a
   shard plans (keys_at) and what globalScrapeStatus returns, that the needed space is non-negative and makes tryScaleUp
   grow, how the stages of run_stages follow from one another, the three ways cycle_sst ends, and clamp as max/min. *)
From KV Require Import Base.Util Base.AMap Base.Sched Gen.Consts Model.Coordinator Model.CoordCheck.
Local Open Scope list_scope.
Local Open Scope Z_scope.

Lemma tstate_eqb_eq a b : tstate_eqb a b = true <-> a = b.
Proof. destruct a, b; split; intros H; (reflexivity || discriminate). Qed.

Definition dflt : sinfo := {| si_ok := false; si_scr := None; si_head := 0; si_proc := 0; si_idle := None |}.
Lemma nth_si_eq p k : nth_si p k = nth k p dflt.
Proof. reflexivity. Qed.

Lemma upd_length {A} k (f : A -> A) l : length (upd k f l) = length l.
Proof. revert k. induction l as [|x t IH]; intros [|k]; simpl; auto. Qed.

Lemma nth_upd_eq {A} k (f : A -> A) l d : (k < length l)%nat -> nth k (upd k f l) d = f (nth k l d).
Proof.
  revert k. induction l as [|x t IH]; intros k H; [destruct (Nat.nlt_0_r _ H)|].
  destruct k as [|k]; [reflexivity|]. apply IH, Nat.succ_lt_mono, H.
Qed.

Lemma nth_upd_neq {A} k j (f : A -> A) l d : k <> j -> nth j (upd k f l) d = nth j l d.
Proof. revert k j. induction l as [|x t IH]; intros [|k] [|j] H; simpl; try congruence; auto. Qed.

Lemma upd_out {A} k (f : A -> A) l : (length l <= k)%nat -> upd k f l = l.
Proof.
  revert k. induction l as [|x t IH]; intros k H; [now destruct k|].
  destruct k as [|k]; [destruct (Nat.nle_succ_0 _ H)|]. cbn [upd]. f_equal. apply IH, le_S_n, H.
Qed.

Lemma upd_same {A} k (f : A -> A) l d : f (nth k l d) = nth k l d -> upd k f l = l.
Proof.
  revert k. induction l as [|x t IH]; intros k H; [now destruct k|]. destruct k as [|k]; simpl in *; [now rewrite H|].
  now rewrite IH.
Qed.

Lemma set_scr_same s : si_scr s = Some (scr_of s) -> set_scr s (scr_of s) = s.
Proof. destruct s as [ok scr hd pr idl]. unfold set_scr, scr_of. cbn. intros ->. reflexivity. Qed.

Lemma Forall_upd {A} (P : A -> Prop) k g (l : list A) : Forall P l -> (forall x, P x -> P (g x)) -> Forall P (upd k g l).
Proof. intros Hl Hg. revert k. induction Hl as [|x r Hx Hr IH]; intros [|k]; simpl; constructor; auto. Qed.

Lemma nth_si_upd k j f p :
  nth_si (upd k f p) j = if Nat.eqb k j && Nat.ltb j (length p) then f (nth_si p j) else nth_si p j.
Proof.
  unfold nth_si. destruct (Nat.eqb_spec k j) as [->|Hne]; [|now apply nth_upd_neq].
  destruct (Nat.ltb_spec j (length p)); [now apply nth_upd_eq | now rewrite upd_out].
Qed.

Lemma nth_si_out p k : (length p <= k)%nat -> nth_si p k = dflt.
Proof. intros H. unfold nth_si. now apply nth_overflow. Qed.

Lemma In_indices {A} (l : list A) k : In k (indices l) <-> (k < length l)%nat.
Proof. unfold indices. rewrite in_seq. lia. Qed.

Lemma lt_of_ok p k : si_ok (nth_si p k) = true -> (k < length p)%nat.
Proof.
  intros H. destruct (Nat.lt_ge_cases k (length p)); [assumption|].
  rewrite nth_si_out in H by assumption. discriminate.
Qed.

(* the targets shard k plans *)
Definition keys_at (p : plan) (k : nat) : list N := akeys (scr_of (nth_si p k)).

Lemma keys_at_iff p k h : In h (keys_at p k) <-> exists c, afind h (scr_of (nth_si p k)) = Some c.
Proof. symmetry. apply afind_some_keys. Qed.

(* assignNoScrapingTargets' `scraped` test, per shard *)
Lemma afind_unscraped p h k : existsb (fun si => amem h (scr_of si)) p = false -> afind h (scr_of (nth_si p k)) = None.
Proof.
  intros Hs. destruct (Nat.lt_ge_cases k (length p)) as [Hk|Hk]; [|now rewrite nth_si_out].
  apply (proj1 (existsb_false _ _)) with (x := nth_si p k) in Hs; [|rewrite nth_si_eq; now apply nth_In].
  unfold amem in Hs. now destruct (afind _ _).
Qed.

Lemma keys_at_lt p j h : In h (keys_at p j) -> (j < length p)%nat.
Proof.
  intros H. destruct (Nat.lt_ge_cases j (length p)); [assumption|].
  unfold keys_at in H. rewrite nth_si_out in H by assumption. contradiction.
Qed.

Lemma amem_existsb h (p : plan) j : In h (keys_at p j) -> existsb (fun si => amem h (scr_of si)) p = true.
Proof.
  intros Hin. apply existsb_exists. exists (nth_si p j). split; [apply nth_In; now apply (keys_at_lt p j h)|].
  apply amem_keys. exact Hin.
Qed.

(* the status a first assignment places: no shard knows the target, so it is the explorer's object or a fresh one *)
Lemma first_known_none p h : (forall j, ~ In h (keys_at p j)) -> first_known p h = None.
Proof.
  induction p as [|s t IH]; intros H; simpl; [reflexivity|].
  assert (H0 : afind h (scr_of s) = None).
  { apply afind_none_keys. exact (H 0%nat). }
  rewrite H0. apply IH. intros j. exact (H (S j)).
Qed.

(* globalScrapeStatus takes what it returns from a shard's report *)
Lemma first_known_entry p h c : first_known p h = Some c -> exists k, (k < length p)%nat /\ afind h (scr_of (nth_si p k)) = Some c.
Proof.
  induction p as [|s r IH]; cbn [first_known]; [discriminate|].
  destruct (afind h (scr_of s)) as [c0|] eqn:E.
  - destruct (health_eqb (c_health c0) Unknown).
    + intros H. destruct (IH H) as [k [Hk Hf]]. exists (S k). split; [cbn; lia|exact Hf].
    + intros H. injection H as <-. exists 0%nat. split; [cbn; lia|exact E].
  - intros H. destruct (IH H) as [k [Hk Hf]]. exists (S k). split; [cbn; lia|exact Hf].
Qed.

(* the ways through getOneShardInfo, each with the replies that lead there *)
Inductive info_view (sh : shard_in) : sinfo * list req -> Prop :=
| iv_unready : sh_ready sh = false -> info_view sh (mk_info false None zero_runtime, [])
| iv_no_status : sh_ready sh = true -> sh_status sh = None ->
    info_view sh (mk_info false (Some []) zero_runtime, [GetStatus])
| iv_no_runtime st : sh_ready sh = true -> sh_status sh = Some st -> sh_rt1 sh = None ->
    info_view sh (mk_info false (Some st) zero_runtime, [GetStatus; GetRuntime])
| iv_same_hash st r1 : sh_ready sh = true -> sh_status sh = Some st -> sh_rt1 sh = Some r1 -> r_hash_ok r1 = true ->
    info_view sh (mk_info true (Some st) r1, [GetStatus; GetRuntime])
| iv_push_fails st r1 : sh_ready sh = true -> sh_status sh = Some st -> sh_rt1 sh = Some r1 -> r_hash_ok r1 = false ->
    sh_push_ok sh = false ->
    info_view sh (mk_info false (Some st) r1, [GetStatus; GetRuntime; PostConfig])
| iv_no_recheck st r1 : sh_ready sh = true -> sh_status sh = Some st -> sh_rt1 sh = Some r1 -> r_hash_ok r1 = false ->
    sh_push_ok sh = true -> sh_rt2 sh = None ->
    info_view sh (mk_info false (Some st) zero_runtime, [GetStatus; GetRuntime; PostConfig; GetRuntime])
| iv_rechecked st r1 r2 : sh_ready sh = true -> sh_status sh = Some st -> sh_rt1 sh = Some r1 -> r_hash_ok r1 = false ->
    sh_push_ok sh = true -> sh_rt2 sh = Some r2 ->
    info_view sh (mk_info (r_hash_ok r2) (Some st) r2, [GetStatus; GetRuntime; PostConfig; GetRuntime]).

Lemma get_info_view sh : info_view sh (get_info sh).
Proof.
  unfold get_info. destruct (sh_ready sh) eqn:E1; cbn [negb]; [|now constructor].
  destruct (sh_status sh) as [st|] eqn:E2; [|now constructor].
  destruct (sh_rt1 sh) as [r1|] eqn:E3; [|now constructor].
  destruct (r_hash_ok r1) eqn:E4; [now constructor|].
  destruct (sh_push_ok sh) eqn:E5; cbn [negb]; [|now constructor].
  destruct (sh_rt2 sh) as [r2|] eqn:E6.
  - exact (iv_rechecked sh st r1 r2 E1 E2 E3 E4 E5 E6).
  - exact (iv_no_recheck sh st r1 E1 E2 E3 E4 E5 E6).
Qed.

Lemma si_scr_get_info sh : si_scr (fst (get_info sh)) = if sh_ready sh then Some (cache_of sh) else None.
Proof.
  unfold get_info, cache_of. destruct (sh_ready sh); [|reflexivity].
  destruct (sh_status sh); [|reflexivity]. destruct (sh_rt1 sh) as [r1|]; [|reflexivity].
  destruct (r_hash_ok r1); [reflexivity|]. destruct (sh_push_ok sh); [|reflexivity].
  destruct (sh_rt2 sh); reflexivity.
Qed.

(* every shard's planned set starts as what it reported (nothing, if it was not asked or did not answer) *)
Lemma scr_of_get_info sh : scr_of (fst (get_info sh)) = cache_of sh.
Proof. unfold scr_of. rewrite si_scr_get_info. unfold cache_of. now destruct (sh_ready sh). Qed.

Lemma scr_of_info_at i k : scr_of (info_at i k) = reported i k.
Proof. apply scr_of_get_info. Qed.

Definition dshard : shard_in :=
  {| sh_ready := false; sh_status := None; sh_rt1 := None; sh_push_ok := false; sh_rt2 := None; sh_post_ok := false |}.

(* no bound on k: the default shard is unready, and the info of an unready shard is the default info *)
Lemma nth_si_p0 i k : nth_si (map (fun sh => fst (get_info sh)) (i_shards i)) k = info_at i k.
Proof. exact (map_nth (fun sh => fst (get_info sh)) (i_shards i) dshard k). Qed.

Lemma keys_at_p0 i k : keys_at (map (fun sh => fst (get_info sh)) (i_shards i)) k = akeys (reported i k).
Proof. unfold keys_at. now rewrite nth_si_p0, scr_of_info_at. Qed.

(* "p' extends p": same shards, same flags, every planned copy still planned *)
Record le_plan (p p' : plan) : Prop := {
  le_len : length p = length p';
  le_ok : forall k, si_ok (nth_si p k) = si_ok (nth_si p' k);
  le_idle : forall k, si_idle (nth_si p k) = si_idle (nth_si p' k);
  le_keys : forall k h, In h (keys_at p k) -> In h (keys_at p' k);
}.

Lemma le_plan_refl p : le_plan p p.
Proof. constructor; auto. Qed.
Lemma le_plan_trans p q r : le_plan p q -> le_plan q r -> le_plan p r.
Proof.
  intros [a b c d] [a' b' c' d']. constructor.
  - congruence.
  - intros k. rewrite b. apply b'.
  - intros k. rewrite c. apply c'.
  - auto.
Qed.

Lemma scr_of_add_load s a b : scr_of (add_load s a b) = scr_of s.
Proof. reflexivity. Qed.

Lemma nth_si_transfer p from to h tar j :
  afind h (scr_of (nth_si p from)) = Some tar -> (to < length p)%nat -> from <> to ->
  nth_si (transfer p from to h) j =
  if Nat.eqb j to
  then set_scr (add_load (nth_si p to) (c_series tar) (c_total tar)) (aset h tar (scr_of (nth_si p to)))
  else if Nat.eqb j from
  then set_scr (nth_si p from) (aset h (set_state tar InTransfer) (scr_of (nth_si p from)))
  else nth_si p j.
Proof.
  intros Ef Hto Hne. unfold transfer. rewrite Ef, !nth_si_upd, upd_length.
  assert (Hfrom : (from < length p)%nat).
  { destruct (Nat.lt_ge_cases from (length p)); [assumption|]. rewrite nth_si_out in Ef by assumption. discriminate. }
  destruct (Nat.eqb_spec j to) as [->|Hjt].
  - rewrite (proj2 (Nat.eqb_neq from to) Hne), Nat.eqb_refl, (proj2 (Nat.ltb_lt _ _) Hto). reflexivity.
  - rewrite (proj2 (Nat.eqb_neq to j)) by congruence. cbn [andb].
    destruct (Nat.eqb_spec j from) as [->|Hjf].
    + now rewrite Nat.eqb_refl, (proj2 (Nat.ltb_lt _ _) Hfrom).
    + now rewrite (proj2 (Nat.eqb_neq from j)) by congruence.
Qed.

Lemma transfer_dest_holds p from to h :
  (to < length p)%nat -> from <> to -> In h (keys_at p from) -> In h (keys_at (transfer p from to h) to).
Proof.
  intros Hto Hne Hin. apply keys_at_iff in Hin. destruct Hin as [tar Htar]. unfold keys_at.
  rewrite (nth_si_transfer p from to h tar to Htar Hto Hne), Nat.eqb_refl. cbn [scr_of set_scr si_scr].
  apply In_akeys_aset. now left.
Qed.

Record ge_plan (p p' : plan) : Prop := {    (* p' is p with some copies deleted *)
  ge_len : length p = length p';
  ge_ok : forall k, si_ok (nth_si p k) = si_ok (nth_si p' k);
  ge_idle : forall k, si_idle (nth_si p k) = si_idle (nth_si p' k);
  ge_head : forall k, si_head (nth_si p k) = si_head (nth_si p' k);
  ge_proc : forall k, si_proc (nth_si p k) = si_proc (nth_si p' k);
  ge_sub : forall k h c, afind h (scr_of (nth_si p' k)) = Some c -> afind h (scr_of (nth_si p k)) = Some c;
}.
Lemma ge_keys p p' k h : ge_plan p p' -> In h (keys_at p' k) -> In h (keys_at p k).
Proof. intros G. rewrite !keys_at_iff. intros [c Hc]. exists c. now apply (ge_sub _ _ G). Qed.
Lemma ge_plan_refl p : ge_plan p p.
Proof. constructor; auto. Qed.
Lemma ge_plan_trans p q r : ge_plan p q -> ge_plan q r -> ge_plan p r.
Proof.
  intros [a b c d e f] [a' b' c' d' e' f']. constructor.
  - congruence.
  - intros k. rewrite b. apply b'.
  - intros k. rewrite c. apply c'.
  - intros k. rewrite d. apply d'.
  - intros k. rewrite e. apply e'.
  - auto.
Qed.

Definition nodup_plan (p : plan) : Prop := forall k, NoDup (akeys (scr_of (nth_si p k))).

Lemma nth_si_gc_shard o active p k j :
  nth_si (gc_shard o active p k) j =
  if Nat.eqb k j && si_ok (nth_si p j)
  then set_scr (nth_si p j) (filter (fun kv => gc_keep o active p j (fst kv) (snd kv)) (scr_of (nth_si p j)))
  else nth_si p j.
Proof.
  unfold gc_shard. destruct (Nat.eqb_spec k j) as [->|Hne]; cbn [andb].
  - destruct (si_ok (nth_si p j)) eqn:Hok; [|reflexivity].
    rewrite nth_si_upd, Nat.eqb_refl. now rewrite (proj2 (Nat.ltb_lt _ _) (lt_of_ok p j Hok)).
  - destruct (si_ok (nth_si p k)); [|reflexivity]. rewrite nth_si_upd. now rewrite (proj2 (Nat.eqb_neq k j) Hne).
Qed.

Lemma scr_of_gc_shard o active p k j :
  scr_of (nth_si (gc_shard o active p k) j) =
  if Nat.eqb k j && si_ok (nth_si p j)
  then filter (fun kv => gc_keep o active p j (fst kv) (snd kv)) (scr_of (nth_si p j))
  else scr_of (nth_si p j).
Proof. rewrite nth_si_gc_shard. now destruct (_ && _). Qed.

Lemma afind_gc_shard o active p k j h : nodup_plan p ->
  afind h (scr_of (nth_si (gc_shard o active p k) j)) =
  match afind h (scr_of (nth_si p j)) with
  | Some c => if Nat.eqb k j && si_ok (nth_si p j) && negb (gc_keep o active p j h c) then None else Some c
  | None => None
  end.
Proof.
  intros Hnd. rewrite scr_of_gc_shard. destruct (Nat.eqb k j && si_ok (nth_si p j)); cbn [andb].
  - rewrite afind_filter by apply Hnd. destruct (afind h _) as [c|]; [|reflexivity].
    cbn [fst snd]. now destruct (gc_keep _ _ _ _ _ _).
  - now destruct (afind h _).
Qed.

Lemma gc_shard_flags o active p k j :
  si_ok (nth_si (gc_shard o active p k) j) = si_ok (nth_si p j) /\
  si_idle (nth_si (gc_shard o active p k) j) = si_idle (nth_si p j) /\
  si_head (nth_si (gc_shard o active p k) j) = si_head (nth_si p j) /\
  si_proc (nth_si (gc_shard o active p k) j) = si_proc (nth_si p j).
Proof. rewrite nth_si_gc_shard. destruct (_ && _); repeat split. Qed.

Lemma gc_shard_length o active p k : length (gc_shard o active p k) = length p.
Proof. unfold gc_shard. destruct (si_ok _); [apply upd_length | reflexivity]. Qed.

Lemma gc_shard_nodup o active p k : nodup_plan p -> nodup_plan (gc_shard o active p k).
Proof.
  intros Hnd j. rewrite scr_of_gc_shard. destruct (_ && _); [apply NoDup_akeys_filter|]; apply Hnd.
Qed.

(* gcTargets only deletes copies of in-sync shards, and never touches flags or loads *)
Lemma gc_shard_ge o active p k : nodup_plan p -> ge_plan p (gc_shard o active p k).
Proof.
  intros Hnd. pose proof (gc_shard_flags o active p k) as F. constructor.
  - symmetry. apply gc_shard_length.
  - intros j. symmetry. apply F.
  - intros j. symmetry. apply F.
  - intros j. symmetry. apply F.
  - intros j. symmetry. apply F.
  - intros j h c. rewrite afind_gc_shard by exact Hnd.
    destruct (afind h (scr_of (nth_si p j))) as [c0|]; [|discriminate]. now destruct (_ && _).
Qed.

Lemma nodup_plan_ge p p' : nodup_plan p -> ge_plan p p' ->
  (forall k, exists f, scr_of (nth_si p' k) = filter f (scr_of (nth_si p k))) -> nodup_plan p'.
Proof.
  intros Hnd _ Hf k. destruct (Hf k) as [f ->]. apply NoDup_akeys_filter. apply Hnd.
Qed.

Lemma gc_fold_ge o active l p : nodup_plan p ->
  ge_plan p (fold_left (gc_shard o active) l p) /\ nodup_plan (fold_left (gc_shard o active) l p).
Proof.
  intros Hnd. apply (fold_left_inv _ (fun q => ge_plan p q /\ nodup_plan q)); [split; [apply ge_plan_refl | exact Hnd]|].
  intros q k [G N]. split; [|now apply gc_shard_nodup].
  eapply ge_plan_trans; [exact G | now apply gc_shard_ge].
Qed.

Lemma gc_ge o active p : nodup_plan p -> ge_plan p (gc o active p).
Proof. intros H. now apply gc_fold_ge. Qed.
Lemma gc_nodup o active p : nodup_plan p -> nodup_plan (gc o active p).
Proof. intros H. now apply gc_fold_ge. Qed.

Lemma gc_flags o active p j :
  si_ok (nth_si (gc o active p) j) = si_ok (nth_si p j) /\
  si_idle (nth_si (gc o active p) j) = si_idle (nth_si p j) /\
  si_head (nth_si (gc o active p) j) = si_head (nth_si p j) /\
  si_proc (nth_si (gc o active p) j) = si_proc (nth_si p j).
Proof.
  apply (fold_left_inv _ (fun q => si_ok (nth_si q j) = si_ok (nth_si p j) /\ si_idle (nth_si q j) = si_idle (nth_si p j) /\
                                   si_head (nth_si q j) = si_head (nth_si p j) /\ si_proc (nth_si q j) = si_proc (nth_si p j)));
    [repeat split|].
  intros q k (a & b & c & d). destruct (gc_shard_flags o active q k j) as (a' & b' & c' & d').
  repeat split; congruence.
Qed.

Lemma gc_length o active p : length (gc o active p) = length p.
Proof.
  apply (fold_left_inv _ (fun q => length q = length p)); [reflexivity|].
  intros q k H. now rewrite gc_shard_length.
Qed.

Lemma gc_justifies_spec o fr s other h tar :
  gc_justifies o fr s other h tar = true <->
  exists c', afind h (scr_of other) = Some c' /\ (min_wait <= c_times c')%N /\
    (c_state tar = InTransfer /\ c_state c' = Normal \/
     c_state tar = c_state c' /\
     (load_of o other < load_of o s \/ load_of o other = load_of o s /\ fr = true)).
Proof.
  unfold gc_justifies. destruct (afind h (scr_of other)) as [c'|].
  2:{ split; [discriminate | intros (c' & E & _); discriminate]. }
  rewrite andb_true_iff, orb_true_iff, !andb_true_iff, orb_true_iff, andb_true_iff, N.leb_le, Z.ltb_lt, Z.eqb_eq.
  rewrite !tstate_eqb_eq. split.
  - intros [Ht Hs]. exists c'. auto.
  - intros (c2 & [= <-] & Ht & Hs). auto.
Qed.

(* equal loads no longer protect both copies: with the same state, enough scrapes on both sides and equal load, the
   later shard's copy is justified to go - and the front shard's is not justified by the later one *)
Theorem tie_broken_by_position o s other h tar st :
  afind h (scr_of other) = Some st -> (min_wait <= c_times st)%N -> c_state tar = c_state st ->
  load_of o other = load_of o s ->
  gc_justifies o true s other h tar = true /\
  (c_state tar = c_state st -> gc_justifies o false s other h tar = false \/ c_state tar = InTransfer /\ c_state st = Normal).
Proof.
  intros Hf Ht Hs Hl. unfold gc_justifies. rewrite Hf.
  assert (Ht' : (min_wait <=? c_times st)%N = true) by now apply N.leb_le.
  rewrite Ht', Hs, Hl, Z.ltb_irrefl, Z.eqb_refl. simpl.
  assert (He : tstate_eqb (c_state st) (c_state st) = true) by (destruct (c_state st); reflexivity).
  split.
  - rewrite He. simpl. now rewrite orb_true_r.
  - intros _. left. simpl. destruct (c_state st); reflexivity.
Qed.

(* what justifies deleting copy c of h on shard j: both copies are old enough, and another in-sync shard holds a copy
   that wins by state, or has the same state and wins by load (ties go to the lower shard) *)
Definition justified (o : opts) (p : plan) (j : nat) (h : N) (c : cstat) : Prop :=
  (min_wait <= c_times c)%N /\
  exists j' c', j' <> j /\ si_ok (nth_si p j') = true /\ afind h (scr_of (nth_si p j')) = Some c' /\
    (min_wait <= c_times c')%N /\
    (c_state c = InTransfer /\ c_state c' = Normal \/
     c_state c = c_state c' /\
     (load_of o (nth_si p j') < load_of o (nth_si p j) \/
      load_of o (nth_si p j') = load_of o (nth_si p j) /\ (j' < j)%nat)).

Lemma gc_keep_false_iff o active p k h c :
  gc_keep o active p k h c = false <-> is_active active h = false \/ justified o p k h c.
Proof.
  unfold gc_keep, justified. destruct (is_active active h); cbn [negb]; [|tauto].
  destruct (N.ltb_spec (c_times c) min_wait) as [Hlt|Hge].
  { split; [discriminate | intros [H|[H _]]; [discriminate | lia]]. }
  rewrite negb_false_iff, existsb_exists. split.
  - intros (j & _ & H). apply andb_true_iff in H. destruct H as [H Hj].
    apply andb_true_iff in H. destruct H as [Hne Hok]. apply negb_true_iff, Nat.eqb_neq in Hne.
    apply gc_justifies_spec in Hj. destruct Hj as (c' & Hc' & Ht' & Hs). rewrite Nat.ltb_lt in Hs.
    right. split; [exact Hge|]. exists j, c'. auto 6.
  - intros [H|[_ (j & c' & Hne & Hok & Hc' & Ht' & Hs)]]; [discriminate|].
    exists j. split; [apply In_indices; now apply lt_of_ok|].
    apply Nat.eqb_neq in Hne. rewrite Hne, Hok. cbn [negb andb].
    apply gc_justifies_spec. exists c'. rewrite Nat.ltb_lt. auto.
Qed.

Lemma gc_shard_deletes o active p k j h c :
  nodup_plan p -> afind h (scr_of (nth_si p j)) = Some c ->
  afind h (scr_of (nth_si (gc_shard o active p k) j)) = None ->
  k = j /\ si_ok (nth_si p j) = true /\ (is_active active h = false \/ justified o p j h c).
Proof.
  intros Hnd Hc. rewrite afind_gc_shard, Hc by exact Hnd.
  destruct (Nat.eqb_spec k j) as [->|]; [|discriminate]. destruct (si_ok (nth_si p j)); [|discriminate].
  destruct (gc_keep o active p j h c) eqn:Hkeep; [discriminate|]. intros _.
  split; [reflexivity|]. split; [reflexivity|]. now apply (gc_keep_false_iff o active).
Qed.

Lemma load_of_ge o p q j : ge_plan p q -> load_of o (nth_si q j) = load_of o (nth_si p j).
Proof. intros G. unfold load_of. now rewrite (ge_head _ _ G), (ge_proc _ _ G). Qed.

Lemma justified_ge o p q j h c : ge_plan p q -> justified o q j h c -> justified o p j h c.
Proof.
  intros G (Ht & j' & c' & Hne & Hok & Hc' & Ht' & Hs). split; [exact Ht|]. exists j', c'.
  rewrite (ge_ok _ _ G), <- !(load_of_ge o p q) by exact G. repeat split; try assumption.
  now apply (ge_sub _ _ G).
Qed.

(* the whole pass: a copy of a discovered target that is gone afterwards was deleted for a reason that holds of the
   plan gc started from *)
Lemma gc_deletes o active p j h c :
  nodup_plan p -> afind h (scr_of (nth_si p j)) = Some c ->
  afind h (scr_of (nth_si (gc o active p) j)) = None ->
  si_ok (nth_si p j) = true /\ (is_active active h = false \/ justified o p j h c).
Proof.
  unfold gc. generalize (indices p). intros l. revert p.
  induction l as [|k l IH]; intros p Hnd Hc Hgone; cbn [fold_left] in Hgone; [congruence|].
  destruct (afind h (scr_of (nth_si (gc_shard o active p k) j))) as [c1|] eqn:E1.
  - pose proof (gc_shard_ge o active p k Hnd) as G.
    assert (c1 = c) as -> by (apply (ge_sub _ _ G) in E1; congruence).
    destruct (IH _ (gc_shard_nodup o active p k Hnd) E1 Hgone) as [Hok Hj].
    split; [now rewrite (ge_ok _ _ G)|]. destruct Hj as [Hj|Hj]; [now left|right]. now apply (justified_ge o p _ j h c G).
  - now destruct (gc_shard_deletes o active p k j h c Hnd Hc E1) as (_ & Hok & Hj).
Qed.

(* where the walk of gcTargets is when it comes to shard k: a plan between the first and the last *)
Lemma gc_fold_turn o a k : forall l p, nodup_plan p -> In k l ->
  exists q, ge_plan p q /\ nodup_plan q /\
            ge_plan (gc_shard o a q k) (fold_left (gc_shard o a) l p).
Proof.
  induction l as [|i r IH]; intros p Hnd Hin; [destruct Hin|]. cbn [fold_left].
  destruct (Nat.eq_dec i k) as [->|Hne].
  - exists p. split; [apply ge_plan_refl|]. split; [exact Hnd|]. now apply gc_fold_ge, gc_shard_nodup.
  - destruct Hin as [Hin|Hin]; [contradiction|].
    destruct (IH (gc_shard o a p i) (gc_shard_nodup o a p i Hnd) Hin) as (q & G & Hq & G').
    exists q. split; [|now split]. eapply ge_plan_trans; [now apply gc_shard_ge|exact G].
Qed.

Lemma gc_kept_passed o a p k h c : nodup_plan p -> si_ok (nth_si p k) = true ->
  afind h (scr_of (nth_si (gc o a p) k)) = Some c ->
  exists q, ge_plan p q /\ ge_plan q (gc o a p) /\ gc_keep o a q k h c = true.
Proof.
  intros Hnd Hok Hf.
  destruct (gc_fold_turn o a k (indices p) p Hnd) as (q & G & Hq & G'); [now apply In_indices, lt_of_ok|].
  fold (gc o a p) in G'. exists q. split; [exact G|]. split.
  - eapply ge_plan_trans; [now apply gc_shard_ge|exact G'].
  - apply (ge_sub _ _ G') in Hf. rewrite (afind_gc_shard o a q k k h Hq), Nat.eqb_refl, <- (ge_ok _ _ G), Hok in Hf.
    destruct (afind h (scr_of (nth_si q k))) as [c'|]; [|discriminate].
    destruct (gc_keep o a q k h c') eqn:E; [|discriminate]. now injection Hf as <-.
Qed.

Lemma gc_survives o a p k h c : nodup_plan p ->
  afind h (scr_of (nth_si p k)) = Some c ->
  (forall q, ge_plan p q -> gc_keep o a q k h c = true) ->
  afind h (scr_of (nth_si (gc o a p) k)) = Some c.
Proof.
  intros Hnd Hf Hkeep. unfold gc.
  apply (fold_left_inv (gc_shard o a)
           (fun q => (ge_plan p q /\ nodup_plan q) /\ afind h (scr_of (nth_si q k)) = Some c)).
  - split; [split; [apply ge_plan_refl|exact Hnd]|exact Hf].
  - intros q i [[G Hq] Hfq]. split.
    + split; [eapply ge_plan_trans; [exact G|now apply gc_shard_ge]|now apply gc_shard_nodup].
    + rewrite (afind_gc_shard o a q i k h Hq), Hfq, (Hkeep q G). now rewrite andb_false_r.
Qed.

Lemma gc_active o active p k h c : nodup_plan p -> si_ok (nth_si p k) = true ->
  afind h (scr_of (nth_si (gc o active p) k)) = Some c -> is_active active h = true.
Proof.
  intros Hnd Hok H. destruct (gc_kept_passed o active p k h c Hnd Hok H) as (q & _ & _ & Hkeep).
  unfold gc_keep in Hkeep. now destruct (is_active active h).
Qed.

(* recoverOrphanTransfers only rewrites states: same shards, flags, loads and keys *)
Lemma recover_from_length p k l : length (recover_from p k l) = length l.
Proof. revert k. induction l as [|s r IH]; intros k; simpl; auto. Qed.
Lemma recover_length p : length (recover p) = length p.
Proof. apply recover_from_length. Qed.

Lemma nth_recover_from p k0 l k d : (k < length l)%nat ->
  nth k (recover_from p k0 l) d = recover_shard p (k0 + k) (nth k l d).
Proof.
  revert k0 k. induction l as [|s r IH]; intros k0 [|k] H; simpl in *; try lia.
  - now rewrite Nat.add_0_r.
  - rewrite IH by lia. f_equal. lia.
Qed.

(* no bound on k: the default info is not in sync, and recover_shard leaves such a shard alone *)
Lemma nth_recover p k : nth_si (recover p) k = recover_shard p k (nth_si p k).
Proof.
  unfold nth_si, recover. destruct (Nat.lt_ge_cases k (length p)) as [H|H].
  - now rewrite nth_recover_from.
  - rewrite !nth_overflow by (rewrite ?recover_from_length; exact H). reflexivity.
Qed.

Definition recovered (p : plan) (k : nat) (h : N) (c : cstat) : cstat :=
  if tstate_eqb (c_state c) InTransfer && orphan p k h then set_state c Normal else c.

Lemma scr_of_recover_shard p k s :
  scr_of (recover_shard p k s) =
  if si_ok s then map (fun kv => (fst kv, recovered p k (fst kv) (snd kv))) (scr_of s) else scr_of s.
Proof.
  unfold recover_shard. destruct (si_ok s); [|reflexivity]. cbn [scr_of set_scr si_scr].
  apply map_ext. intros [h c]. unfold recovered. cbn [fst snd]. now destruct (_ && _).
Qed.

Lemma afind_recover p k h :
  afind h (scr_of (nth_si (recover p) k)) =
  option_map (fun c => if si_ok (nth_si p k) then recovered p k h c else c) (afind h (scr_of (nth_si p k))).
Proof.
  rewrite nth_recover, scr_of_recover_shard. destruct (si_ok (nth_si p k)).
  - apply afind_map.
  - now destruct (afind h _).
Qed.

Lemma orphan_true_iff p k h :
  orphan p k h = true <-> forall j, j <> k -> si_ok (nth_si p j) = true -> afind h (scr_of (nth_si p j)) = None.
Proof.
  unfold orphan, amem. rewrite negb_true_iff, existsb_false. split.
  - intros H j Hj Hok. specialize (H j (proj2 (In_indices p j) (lt_of_ok p j Hok))).
    apply Nat.eqb_neq in Hj. rewrite Hj, Hok in H. cbn [negb andb] in H. now destruct (afind _ _).
  - intros H j _. destruct (Nat.eqb_spec j k); [reflexivity|]. cbn [negb andb].
    destruct (si_ok (nth_si p j)) eqn:Hok; [|reflexivity]. now rewrite (H j).
Qed.

(* an in_transfer copy on an in-sync shard that no other in-sync shard holds is normal after recoverOrphanTransfers *)
Theorem orphan_recovered p k h c :
  (k < length p)%nat -> si_ok (nth_si p k) = true -> NoDup (akeys (scr_of (nth_si p k))) ->
  afind h (scr_of (nth_si p k)) = Some c -> c_state c = InTransfer -> orphan p k h = true ->
  afind h (scr_of (nth_si (recover p) k)) = Some (set_state c Normal).
Proof.
  intros _ Hok _ Hf Hs Ho. rewrite afind_recover, Hf, Hok. cbn [option_map]. unfold recovered. now rewrite Hs, Ho.
Qed.

(* no copy is in_transfer after the pass unless another in-sync shard holds the target as well *)
Theorem no_orphan_left p k h c :
  afind h (scr_of (nth_si (recover p) k)) = Some c -> c_state c = InTransfer -> si_ok (nth_si p k) = true ->
  orphan p k h = false.
Proof.
  rewrite afind_recover. intros Hf Hs Hok. rewrite Hok in Hf.
  destruct (afind h (scr_of (nth_si p k))) as [c0|]; [|discriminate]. injection Hf as <-. unfold recovered in Hs.
  destruct (orphan p k h); [|reflexivity]. rewrite andb_true_r in Hs.
  destruct (tstate_eqb (c_state c0) InTransfer) eqn:E; [discriminate|]. rewrite Hs in E. discriminate.
Qed.

Lemma recover_flags p k :
  si_ok (nth_si (recover p) k) = si_ok (nth_si p k) /\ si_idle (nth_si (recover p) k) = si_idle (nth_si p k) /\
  si_head (nth_si (recover p) k) = si_head (nth_si p k) /\ si_proc (nth_si (recover p) k) = si_proc (nth_si p k).
Proof. rewrite nth_recover. unfold recover_shard. destruct (si_ok (nth_si p k)) eqn:E; simpl; auto. Qed.

Lemma recover_keys p k : keys_at (recover p) k = keys_at p k.
Proof.
  unfold keys_at. rewrite nth_recover, scr_of_recover_shard. destruct (si_ok _); [apply akeys_map | reflexivity].
Qed.

Lemma recover_le p : le_plan p (recover p).
Proof.
  constructor.
  - now rewrite recover_length.
  - intros k. symmetry. apply recover_flags.
  - intros k. symmetry. apply recover_flags.
  - intros k h. now rewrite recover_keys.
Qed.

Lemma recover_nodup p : nodup_plan p -> nodup_plan (recover p).
Proof. intros H k. fold (keys_at (recover p) k). rewrite recover_keys. apply H. Qed.

Lemma relief_shard_need_nonneg step total0 exp p k s : 0 <= snd (fst (fst (relief_shard step total0 exp p k s))).
Proof.
  unfold relief_shard. destruct (total0 <=? exp); [simpl; lia|].
  destruct (order _ s) as [keys s1]. cbn [fst snd].
  destruct (rs_abort _); [lia|]. destruct (exp <? _) eqn:E; [apply Z.ltb_lt in E|]; lia.
Qed.

Lemma pass_need_nonneg step total0 exp st k :
  0 <= ps_need st ->
  0 <= ps_need (let '((p', need, evs), s') := relief_shard step total0 exp (ps_plan st) k (ps_sst st) in
                {| ps_plan := p'; ps_need := ps_need st + need; ps_events := ps_events st ++ evs; ps_sst := s' |}).
Proof.
  intros H. pose proof (relief_shard_need_nonneg step total0 exp (ps_plan st) k (ps_sst st)) as Hn.
  destruct (relief_shard _ _ _ _ _ _) as [[[p' need] evs] s']. cbn [fst snd ps_need] in *. lia.
Qed.

Lemma alleviate_need_nonneg o p s :
  0 <= fst (snd (fst (fst (alleviate o p s)))) /\ 0 <= snd (snd (fst (fst (alleviate o p s)))).
Proof.
  unfold alleviate. destruct (disable_alleviate o); [simpl; lia|].
  assert (H1 : forall st, 0 <= ps_need st -> 0 <= ps_need (fold_left (proc_pass_step o) (indices p) st)).
  { intros st0 H0. apply fold_left_inv; [exact H0|]. intros st k H. unfold proc_pass_step.
    destruct (_ && _); [now apply pass_need_nonneg | exact H]. }
  assert (H2 : forall st, 0 <= ps_need st -> 0 <= ps_need (fold_left (head_pass_step o) (indices p) st)).
  { intros st0 H0. apply fold_left_inv; [exact H0|]. intros st k H. unfold head_pass_step.
    destruct (si_ok _); [|exact H]. destruct (head_threshold _ _); [now apply pass_need_nonneg | exact H]. }
  destruct (max_head o =? 0); cbn [fst snd]; split; try apply H2; try apply H1; cbn; lia.
Qed.

(* tryScaleUp: with every shard in sync, any needed space asks for at least one shard more than there are *)
Theorem scale_up_grows o p need :
  0 < max_proc o -> 0 <= max_head o -> 0 <= fst need -> 0 <= snd need ->
  Forall (fun s => si_ok s = true) p ->
  Z.of_nat (length p) + 1 <= try_scale_up o p need.
Proof.
  intros Hp Hh Hn1 Hn2 Hok. unfold try_scale_up.
  rewrite (filter_all si_ok p (proj1 (Forall_forall _ _) Hok)).
  assert (H1 : 0 <= Z.quot (snd need) (max_proc o)) by (apply Z.quot_pos; lia).
  destruct (negb (max_head o =? 0) && _) eqn:E.
  - apply andb_true_iff in E. destruct E as [E1 E2]. apply Z.ltb_lt in E2. lia.
  - lia.
Qed.

Lemma stages_p0 o i s : st_p0 (run_stages o i s) = map (fun sh => fst (get_info sh)) (i_shards i).
Proof. exact eq_refl. Qed.

Lemma stages_p1 o i s : st_p1 (run_stages o i s) = recover (gc o (i_active i) (st_p0 (run_stages o i s))).
Proof. exact eq_refl. Qed.

Lemma p1_flags o i s k :
  si_ok (nth_si (st_p1 (run_stages o i s)) k) = insync i k /\
  si_idle (nth_si (st_p1 (run_stages o i s)) k) = si_idle (info_at i k) /\
  si_head (nth_si (st_p1 (run_stages o i s)) k) = si_head (info_at i k) /\
  si_proc (nth_si (st_p1 (run_stages o i s)) k) = si_proc (info_at i k).
Proof.
  rewrite stages_p1, stages_p0.
  destruct (recover_flags (gc o (i_active i) (map (fun sh => fst (get_info sh)) (i_shards i))) k) as (-> & -> & -> & ->).
  destruct (gc_flags o (i_active i) (map (fun sh => fst (get_info sh)) (i_shards i)) k) as (-> & -> & -> & ->).
  rewrite nth_si_p0. repeat split.
Qed.

Lemma p1_ok o i s k : si_ok (nth_si (st_p1 (run_stages o i s)) k) = insync i k.
Proof. apply p1_flags. Qed.

Lemma p1_length o i s : length (st_p1 (run_stages o i s)) = length (i_shards i).
Proof. rewrite stages_p1, recover_length, gc_length, stages_p0. apply map_length. Qed.

Lemma stages_p2 o i s : st_p2 (run_stages o i s) = fst (fst (fst (alleviate o (st_p1 (run_stages o i s)) s))).
Proof. exact eq_refl. Qed.

Lemma stages_ev_a o i s : st_ev_a (run_stages o i s) = snd (fst (alleviate o (st_p1 (run_stages o i s)) s)).
Proof. exact eq_refl. Qed.

Definition assign_of (o : opts) (i : input) (s : sst) :=
  let S := run_stages o i s in
  assign o (i_active i) (global_status (i_explore i) (st_p0 S)) (st_p2 S) (snd (alleviate o (st_p1 S) s)).

Lemma stages_p3 o i s : st_p3 (run_stages o i s) = fst (fst (fst (assign_of o i s))).
Proof. exact eq_refl. Qed.
Lemma stages_ev_b o i s : st_ev_b (run_stages o i s) = snd (fst (assign_of o i s)).
Proof. exact eq_refl. Qed.
Lemma stages_s2 o i s : st_s2 (run_stages o i s) = snd (assign_of o i s).
Proof. exact eq_refl. Qed.

Lemma stages_need o i s : let S := run_stages o i s in
  st_need S = (fst (snd (fst (fst (alleviate o (st_p1 S) s)))) + fst (snd (fst (fst (assign_of o i s)))),
               snd (snd (fst (fst (alleviate o (st_p1 S) s)))) + snd (snd (fst (fst (assign_of o i s))))).
Proof. exact eq_refl. Qed.

Definition need_zero (S : stages) : bool := (fst (st_need S) =? 0) && (snd (st_need S) =? 0).

Lemma need_zero_iff S : need_zero S = true <-> st_need S = (0, 0).
Proof.
  unfold need_zero. rewrite andb_true_iff, !Z.eqb_eq. destruct (st_need S) as [a b]. cbn [fst snd].
  split; [intros [-> ->]; reflexivity | intros [= -> ->]; auto].
Qed.

(* tryScaleUp / tryScaleDown / neither: the last `let` of run_stages as a function of what it reads.  The equations
   below hold by conversion; run_stages is unfolded on both sides first, or the kernel compares a projection of the
   record on one side with the expanded `let` on the other and unfolds the model's functions to do so. *)
Definition tail_of (o : opts) (p3 : plan) (need : Z * Z) (s2 : sst) : Z * plan * list event * sst :=
  if negb ((fst need =? 0) && (snd need =? 0)) then ((try_scale_up o p3 need, p3, []), s2)
  else if negb (max_idle o =? 0) then try_scale_down o p3 s2
  else ((Z.of_nat (length p3), p3, []), s2).

Lemma stages_scale o i s : let S := run_stages o i s in
  st_scale S = fst (fst (fst (tail_of o (st_p3 S) (st_need S) (st_s2 S)))).
Proof. cbn zeta. unfold st_scale, run_stages. exact eq_refl. Qed.
Lemma stages_p4 o i s : let S := run_stages o i s in
  st_p4 S = snd (fst (fst (tail_of o (st_p3 S) (st_need S) (st_s2 S)))).
Proof. cbn zeta. unfold st_p4, run_stages. exact eq_refl. Qed.
Lemma stages_ev_c o i s : let S := run_stages o i s in
  st_ev_c S = snd (fst (tail_of o (st_p3 S) (st_need S) (st_s2 S))).
Proof. cbn zeta. unfold st_ev_c, run_stages. exact eq_refl. Qed.
Lemma stages_p4_noidle o i s : max_idle o = 0 -> st_p4 (run_stages o i s) = st_p3 (run_stages o i s).
Proof.
  intros Hmi. rewrite stages_p4. unfold tail_of. rewrite Hmi. cbn [Z.eqb negb]. now destruct (negb _).
Qed.

Lemma stages_s3 o i s : let S := run_stages o i s in
  st_s3 S = snd (tail_of o (st_p3 S) (st_need S) (st_s2 S)).
Proof. cbn zeta. unfold st_s3, run_stages. exact eq_refl. Qed.

(* the three ways a cycle ends *)
Inductive cycle_mode := MSkip | MDivZero | MNormal.
Definition mode_of (o : opts) (i : input) (s0 : sst) : cycle_mode :=
  if (Z.of_nat (length (i_shards i)) <? min_shard o) && negb (i_scale1_ok i) then MSkip
  else if negb (need_zero (run_stages o i s0)) && (max_proc o =? 0) then MDivZero else MNormal.
Definition early_scale (o : opts) (i : input) : list Z :=
  if Z.of_nat (length (i_shards i)) <? min_shard o then [min_shard o] else [].
Definition applied (o : opts) (i : input) (s0 : sst) : list (option (list ptarget) * list req) :=
  map (fun pr => apply_shard (i_active i) (fst pr) (snd pr)) (combine (i_shards i) (st_p4 (run_stages o i s0))).

Lemma cycle_sst_eq o i s0 : let S := run_stages o i s0 in
  let logs0 := map (fun sh => snd (get_info sh)) (i_shards i) in
  cycle_sst o i s0 =
  match mode_of o i s0 with
  | MSkip => ({| o_logs := logs0; o_posts := map (fun _ => None) (st_p0 S); o_scales := early_scale o i; o_events := [];
                   o_plan := st_p0 S; o_infos := st_p0 S; o_skipped := true; o_divzero := false |}, s0)
  | MDivZero => ({| o_logs := logs0; o_posts := map (fun _ => None) (st_p0 S); o_scales := early_scale o i;
                   o_events := st_ev_a S ++ st_ev_b S; o_plan := st_p3 S; o_infos := st_p0 S;
                   o_skipped := false; o_divzero := true |}, st_s2 S)
  | MNormal => ({| o_logs := map (fun pr => fst pr ++ snd (snd pr)) (combine logs0 (applied o i s0));
                  o_posts := map fst (applied o i s0);
                  o_scales := early_scale o i ++ [clamp o (st_scale S)];
                  o_events := st_ev_a S ++ st_ev_b S ++ st_ev_c S;
                  o_plan := st_p4 S; o_infos := st_p0 S; o_skipped := false; o_divzero := false |}, st_s3 S)
  end.
Proof.
  cbn zeta. unfold cycle_sst, mode_of, early_scale, need_zero. rewrite map_length.
  destruct (_ && negb (i_scale1_ok i)); [reflexivity|].
  destruct (negb _ && (max_proc o =? 0)); reflexivity.
Qed.

Lemma o_events_cycle o i sch : let S := run_stages o i (sst_of sch) in
  o_events (cycle o i sch) =
  match mode_of o i (sst_of sch) with
  | MSkip => [] | MDivZero => st_ev_a S ++ st_ev_b S | MNormal => st_ev_a S ++ st_ev_b S ++ st_ev_c S
  end.
Proof. cbn zeta. unfold cycle. rewrite cycle_sst_eq. destruct (mode_of o i (sst_of sch)); reflexivity. Qed.

Lemma o_scales_cycle o i sch :
  o_scales (cycle o i sch) =
  early_scale o i ++ match mode_of o i (sst_of sch) with
                     | MNormal => [clamp o (st_scale (run_stages o i (sst_of sch)))] | _ => []
                     end.
Proof. unfold cycle. rewrite cycle_sst_eq. destruct (mode_of _ _ _); cbn [fst o_scales]; now rewrite ?app_nil_r. Qed.

Lemma o_divzero_cycle o i sch :
  o_divzero (cycle o i sch) = match mode_of o i (sst_of sch) with MDivZero => true | _ => false end.
Proof. unfold cycle. rewrite cycle_sst_eq. destruct (mode_of o i (sst_of sch)); reflexivity. Qed.

Lemma o_posts_cycle o i sch :
  o_posts (cycle o i sch) =
  match mode_of o i (sst_of sch) with
  | MNormal => map fst (applied o i (sst_of sch))
  | _ => map (fun _ => None) (st_p0 (run_stages o i (sst_of sch)))
  end.
Proof. unfold cycle. rewrite cycle_sst_eq. destruct (mode_of o i (sst_of sch)); reflexivity. Qed.

Lemma o_logs_cycle o i sch : let logs0 := map (fun sh => snd (get_info sh)) (i_shards i) in
  o_logs (cycle o i sch) =
  match mode_of o i (sst_of sch) with
  | MNormal => map (fun pr => fst pr ++ snd (snd pr)) (combine logs0 (applied o i (sst_of sch)))
  | _ => logs0
  end.
Proof. cbn zeta. unfold cycle. rewrite cycle_sst_eq. destruct (mode_of o i (sst_of sch)); reflexivity. Qed.

Lemma o_plan_cycle o i sch : let S := run_stages o i (sst_of sch) in
  o_plan (cycle o i sch) = match mode_of o i (sst_of sch) with MSkip => st_p0 S | MDivZero => st_p3 S | MNormal => st_p4 S end.
Proof. cbn zeta. unfold cycle. rewrite cycle_sst_eq. destruct (mode_of o i (sst_of sch)); reflexivity. Qed.

Lemma o_infos_cycle o i sch : o_infos (cycle o i sch) = st_p0 (run_stages o i (sst_of sch)).
Proof. unfold cycle. rewrite cycle_sst_eq. destruct (mode_of o i (sst_of sch)); reflexivity. Qed.

Lemma o_skipped_cycle o i sch :
  o_skipped (cycle o i sch) = match mode_of o i (sst_of sch) with MSkip => true | _ => false end.
Proof. unfold cycle. rewrite cycle_sst_eq. destruct (mode_of o i (sst_of sch)); reflexivity. Qed.

(* cmd/kvass rejects a zero process limit; with it the division in tryScaleUp cannot fail *)
Lemma mode_of_valid o i s0 : max_proc o <> 0 -> mode_of o i s0 <> MDivZero.
Proof.
  intros Hv. apply Z.eqb_neq in Hv. unfold mode_of. rewrite Hv, andb_false_r. now destruct (_ && _).
Qed.

Lemma clamp_spec o x : clamp o x = Z.max (min_shard o) (Z.min (max_shard o) x).
Proof.
  unfold clamp. destruct (Z.ltb_spec (max_shard o) x); [destruct (Z.ltb_spec (max_shard o) (min_shard o))|destruct (Z.ltb_spec x (min_shard o))]; lia.
Qed.
