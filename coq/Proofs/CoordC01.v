(* Proofs/CoordC01.v — C01: coordination never orphans a target an in-sync shard is scraping; and what a cycle sends to
   shard k: the body made from the final plan (new_targets, need_update), the observed POST, and when a shard holds a
   target afterwards; taken_justified: a copy is released only to a justified partner (C05 in its general form). *)
From KV Require Import Base.Util Base.AMap Base.Sched Gen.Consts Model.Coordinator Model.CoordCheck Proofs.CoordBasics
  Proofs.CoordEvents.
Local Open Scope list_scope.
Local Open Scope Z_scope.

(* reports carry each hash once (JSON object keys) *)
Definition NoDupReports (i : input) : Prop := forall k, NoDup (akeys (reported i k)).

Lemma nodup_p0 i : NoDupReports i -> nodup_plan (map (fun sh => fst (get_info sh)) (i_shards i)).
Proof. intros H k. rewrite nth_si_p0, scr_of_info_at. apply H. Qed.

(* one pass over one shard keeps some copy of a discovered target, an in-sync one if the copy it had was in sync:
   whatever justifies a deletion is a copy on another in-sync shard, which this pass does not touch *)
Lemma gc_shard_keeps_copy o active p k j h :
  nodup_plan p -> is_active active h = true -> In h (keys_at p j) ->
  exists j', In h (keys_at (gc_shard o active p k) j') /\ (si_ok (nth_si p j) = true -> si_ok (nth_si p j') = true).
Proof.
  intros Hnd Hact Hin. apply keys_at_iff in Hin. destruct Hin as [c Hc].
  destruct (afind h (scr_of (nth_si (gc_shard o active p k) j))) as [c1|] eqn:E.
  { exists j. split; [apply keys_at_iff; eauto | auto]. }
  destruct (gc_shard_deletes o active p k j h c Hnd Hc E) as (-> & _ & [Hn|J]); [congruence|].
  destruct J as (_ & j' & c' & Hne & Hok & Hc' & _). exists j'. split; [|auto].
  apply keys_at_iff. exists c'. rewrite afind_gc_shard, Hc' by exact Hnd.
  now rewrite (proj2 (Nat.eqb_neq j j')) by congruence.
Qed.

Lemma gc_keeps_copy o active p j h :
  nodup_plan p -> is_active active h = true -> In h (keys_at p j) ->
  exists j', In h (keys_at (gc o active p) j') /\ (si_ok (nth_si p j) = true -> si_ok (nth_si p j') = true).
Proof.
  intros Hnd Hact Hin.
  enough (H : nodup_plan (gc o active p) /\ (forall j', si_ok (nth_si (gc o active p) j') = si_ok (nth_si p j')) /\
              exists j', In h (keys_at (gc o active p) j') /\ (si_ok (nth_si p j) = true -> si_ok (nth_si p j') = true))
    by apply H.
  apply (fold_left_inv (gc_shard o active)
           (fun q => nodup_plan q /\ (forall j', si_ok (nth_si q j') = si_ok (nth_si p j')) /\
                     exists j', In h (keys_at q j') /\ (si_ok (nth_si p j) = true -> si_ok (nth_si p j') = true))).
  { split; [exact Hnd|]. split; [reflexivity|]. exists j. auto. }
  intros q k (Hq & Hf & j1 & Hin1 & Hok1). split; [now apply gc_shard_nodup|].
  split; [intros j'; rewrite <- Hf; apply gc_shard_flags|].
  destruct (gc_shard_keeps_copy o active q k j1 h Hq Hact Hin1) as (j2 & Hin2 & Hok2).
  exists j2. split; [exact Hin2|]. intros H. rewrite <- Hf. apply Hok2. rewrite Hf. now apply Hok1.
Qed.

Lemma In_insert_pt t x l : In t (insert_pt x l) <-> t = x \/ In t l.
Proof.
  induction l as [|y r IH]; cbn [insert_pt In].
  - split; (intros [H|[]]; left; congruence).
  - destruct (pt_hash x <=? pt_hash y)%N; cbn [In].
    + split; (intros [H|H]; [left; congruence | now right]).
    + rewrite IH. split; [intros [H|[H|H]] | intros [H|[H|H]]]; auto.
Qed.
Lemma In_sort_pts t l : In t (sort_pts l) <-> In t l.
Proof.
  induction l as [|x r IH]; simpl; [tauto|]. rewrite In_insert_pt, IH. intuition congruence.
Qed.

Lemma new_targets_in active s h c : is_active active h = true -> In (h, c) (scr_of s) ->
  exists t, In t (new_targets active s) /\ pt_hash t = h /\ pt_state t = c_state c.
Proof.
  intros Hact Hin. unfold is_active, amem in Hact. destruct (afind h active) as [job|] eqn:Ej; [|discriminate].
  exists {| pt_hash := h; pt_job := job; pt_state := c_state c; pt_series := c_series c |}. split; [|now split].
  apply in_flat_map. exists (h, c). split; [assumption|]. simpl. rewrite Ej. simpl. auto.
Qed.

Lemma new_targets_has active s h :
  is_active active h = true -> In h (akeys (scr_of s)) ->
  exists t, In t (new_targets active s) /\ pt_hash t = h.
Proof.
  intros Hact Hin. apply in_map_iff in Hin. destruct Hin as [[h' c] [<- Hin]].
  destruct (new_targets_in active s h' c Hact Hin) as (t & A & B & _). eauto.
Qed.

Lemma new_targets_from active s t :
  In t (new_targets active s) -> In (pt_hash t) (akeys (scr_of s)) /\ is_active active (pt_hash t) = true.
Proof.
  unfold new_targets. intros H. apply in_flat_map in H. destruct H as [[h c] [Hin Ht]]. simpl in Ht.
  destruct (afind h active) as [job|] eqn:Ej; [|contradiction]. destruct Ht as [<-|[]]. simpl. split.
  - unfold akeys. apply in_map_iff. exists (h, c). auto.
  - unfold is_active, amem. now rewrite Ej.
Qed.

Lemma new_targets_all_active active s :
  (forall kv, In kv (scr_of s) -> is_active active (fst kv) = true) ->
  map (fun t => (pt_hash t, pt_state t)) (new_targets active s) = map (fun kv => (fst kv, c_state (snd kv))) (scr_of s).
Proof.
  unfold new_targets. induction (scr_of s) as [|[h c] r IH]; intros H; [reflexivity|]. cbn [flat_map map fst snd].
  pose proof (H (h, c) (or_introl eq_refl)) as Ha. unfold is_active, amem in Ha. cbn [fst] in Ha.
  destruct (afind h active); [|discriminate]. cbn [app map pt_hash pt_state]. f_equal. apply IH.
  intros kv Hkv. apply H. now right.
Qed.

Lemma new_targets_unique active s : NoDup (akeys (scr_of s)) -> NoDup (map pt_hash (new_targets active s)).
Proof.
  unfold new_targets, akeys. induction (scr_of s) as [|[h c] r IH]; intros Hnd; simpl; [constructor|].
  inversion Hnd as [|? ? Hn Hr]; subst. rewrite map_app. destruct (afind h active) as [job|]; simpl; [|now apply IH].
  constructor; [|now apply IH]. intros Hin. apply Hn. apply in_map_iff in Hin. destruct Hin as [t [Ht Hin]].
  apply in_flat_map in Hin. destruct Hin as [[h' c'] [Hin' Ht']]. simpl in Ht'.
  destruct (afind h' active); [|destruct Ht']. destruct Ht' as [<-|[]]. simpl in Ht. subst h'.
  apply in_map_iff. exists (h, c'). auto.
Qed.

Lemma need_update_false_same targets (cache : amap cstat) :
  NoDup (map pt_hash targets) -> need_update targets cache = false ->
  forall h st, (exists t, In t targets /\ pt_hash t = h /\ pt_state t = st) <-> (exists c, afind h cache = Some c /\ c_state c = st).
Proof.
  intros Hnt Hnu. unfold need_update in Hnu. apply orb_false_iff in Hnu. destruct Hnu as [Hnu Hex].
  apply orb_false_iff in Hnu. destruct Hnu as [Hlen _]. apply negb_false_iff, Nat.eqb_eq in Hlen.
  assert (Hall : forall t, In t targets -> exists c, afind (pt_hash t) cache = Some c /\ c_state c = pt_state t).
  { intros t Hin. apply (proj1 (existsb_false _ _) Hex) in Hin. destruct (afind (pt_hash t) cache) as [c|]; [|discriminate].
    exists c. split; [reflexivity|]. now apply tstate_eqb_eq, negb_false_iff. }
  (* as many targets as entries, all different, every target an entry: every entry is a target *)
  assert (Hincl : incl (akeys cache) (map pt_hash targets)).
  { apply NoDup_length_incl; [exact Hnt | unfold akeys; rewrite !map_length; lia |].
    intros h Hin. apply in_map_iff in Hin. destruct Hin as [t [<- Hin]]. destruct (Hall t Hin) as [c [E _]].
    apply afind_some_keys. eauto. }
  intros h st. split.
  - intros [t [Hin [<- <-]]]. now apply Hall.
  - intros [c [E Es]]. assert (Hin : In h (map pt_hash targets)) by (apply Hincl, afind_some_keys; eauto).
    apply in_map_iff in Hin. destruct Hin as [t [Ht Hin]]. exists t. split; [exact Hin|]. split; [exact Ht|].
    destruct (Hall t Hin) as [c' [E' Es']]. congruence.
Qed.

Lemma new_targets_char active s h st : NoDup (akeys (scr_of s)) ->
  (exists t, In t (new_targets active s) /\ pt_hash t = h /\ pt_state t = st) <->
  (exists c, afind h (scr_of s) = Some c /\ c_state c = st /\ is_active active h = true).
Proof.
  intros Hnd. unfold new_targets. split.
  - intros [t [Hin [Hh Hs]]]. apply in_flat_map in Hin. destruct Hin as [[h' c] [Hin Ht]]. cbn [fst snd] in Ht.
    destruct (afind h' active) as [job|] eqn:Ej; [|destruct Ht]. destruct Ht as [<-|[]]. cbn in Hh, Hs. subst h' st.
    exists c. split; [now apply In_afind_nodup|]. split; [reflexivity|]. unfold is_active, amem. now rewrite Ej.
  - intros [c [Hf [<- Hact]]]. apply new_targets_in; [exact Hact | now apply afind_In].
Qed.

Definition final_plan (o : opts) (i : input) (sch : list nat) : plan := st_p4 (run_stages o i (sst_of sch)).

Lemma stages_len_p4 o i s : length (st_p4 (run_stages o i s)) = length (i_shards i).
Proof.
  rewrite <- (le_len _ _ (stages_le_14 o i s)). apply p1_length.
Qed.

(* no bound on k: beyond the last shard both sides are what apply_shard makes of the default shard *)
Lemma nth_applied o i s0 k :
  nth k (applied o i s0) (None, []) = apply_shard (i_active i) (shard_at i k) (nth_si (st_p4 (run_stages o i s0)) k).
Proof.
  unfold applied. rewrite (map_nth (fun pr => apply_shard (i_active i) (fst pr) (snd pr)) _ (dshard, dflt)).
  rewrite combine_nth by (symmetry; apply stages_len_p4). reflexivity.
Qed.

Lemma nth_post o i sch k :
  nth k (o_posts (cycle o i sch)) None =
  match mode_of o i (sst_of sch) with
  | MNormal => fst (apply_shard (i_active i) (shard_at i k) (nth_si (final_plan o i sch) k))
  | _ => None
  end.
Proof.
  rewrite o_posts_cycle. destruct (mode_of o i (sst_of sch)); try exact (map_nth (fun _ => None) _ dflt k).
  change (@None (list ptarget)) with (fst (@None (list ptarget), @nil req)). rewrite map_nth, nth_applied. reflexivity.
Qed.

Lemma final_ok o i sch k : si_ok (nth_si (final_plan o i sch) k) = insync i k.
Proof. unfold final_plan. rewrite <- (le_ok _ _ (stages_le_14 o i (sst_of sch))). apply p1_ok. Qed.

Lemma post_at_obs out k :
  post_at (obs_of out) k = match nth k (o_posts out) None with Some l => Some (sort_pts l) | None => None end.
Proof.
  unfold post_at, obs_of. cbn [ob_posts].
  exact (map_nth (fun p => match p with Some l => Some (sort_pts l) | None => None end) (o_posts out) None k).
Qed.

Lemma post_at_cycle_eq o i sch k :
  post_at (obs_of (cycle o i sch)) k =
  match mode_of o i (sst_of sch) with
  | MNormal => option_map sort_pts (fst (apply_shard (i_active i) (shard_at i k) (nth_si (final_plan o i sch) k)))
  | _ => None
  end.
Proof.
  rewrite post_at_obs, nth_post. destruct (mode_of _ _ _); reflexivity.
Qed.

Lemma post_at_cycle o i sch k :
  let ob := obs_of (cycle o i sch) in
  post_at ob k = None \/
  (si_ok (nth_si (final_plan o i sch) k) = true /\
   post_at ob k = Some (sort_pts (new_targets (i_active i) (nth_si (final_plan o i sch) k)))).
Proof.
  cbn zeta. rewrite post_at_cycle_eq. destruct (mode_of _ _ _); [now left | now left |].
  unfold apply_shard. destruct (si_ok (nth_si (final_plan o i sch) k)); cbn [negb]; [|now left].
  destruct (need_update _ _); [|now left]. right. split; [reflexivity|].
  now destruct (sh_post_ok (shard_at i k)).
Qed.

Lemma post_some o i sch k body : nth k (o_posts (cycle o i sch)) None = Some body ->
  insync i k = true /\ body = new_targets (i_active i) (nth_si (final_plan o i sch) k) /\
  need_update body (reported i k) = true.
Proof.
  rewrite nth_post. destruct (mode_of o i (sst_of sch)); try discriminate.
  unfold apply_shard. rewrite final_ok. destruct (insync i k); [|discriminate]. cbn [negb].
  fold (reported i k). destruct (need_update _ (reported i k)) eqn:E; [|discriminate].
  intros Hb. assert (Hbody : body = new_targets (i_active i) (nth_si (final_plan o i sch) k))
    by (destruct (sh_post_ok (shard_at i k)); cbn [fst] in Hb; congruence).
  subst body. auto.
Qed.

(* a cycle that is neither skipped nor cut short by the zero process limit ends with the final plan *)
Lemma post_main o i sch k :
  o_skipped (cycle o i sch) = false -> o_divzero (cycle o i sch) = false ->
  nth k (o_posts (cycle o i sch)) None = fst (apply_shard (i_active i) (shard_at i k) (nth_si (final_plan o i sch) k)) /\
  o_plan (cycle o i sch) = final_plan o i sch.
Proof.
  rewrite o_skipped_cycle, o_divzero_cycle, nth_post, o_plan_cycle.
  destruct (mode_of o i (sst_of sch)); [discriminate | discriminate |]. intros _ _. split; reflexivity.
Qed.

Lemma stages_nodup o i s : NoDupReports i -> nodup_plan (st_p4 (run_stages o i s)).
Proof.
  intros Hnd. apply (run_nodup _ _ _ _ _ (stages_run o i s)).
  rewrite stages_p1, stages_p0. apply recover_nodup, gc_nodup, nodup_p0, Hnd.
Qed.

Lemma holds_after_iff i ob k h : holds_after i ob k h = true <-> exists x, In x (effective i ob k) /\ fst x = h.
Proof.
  unfold holds_after. rewrite existsb_exists. split; intros [x [Hin Hx]]; exists x; split; auto.
  - now apply N.eqb_eq. - now apply N.eqb_eq.
Qed.

Lemma reported_effective i k h : In h (akeys (reported i k)) ->
  exists x, In x (map (fun kv : N * cstat => (fst kv, c_state (snd kv))) (reported i k)) /\ fst x = h.
Proof.
  unfold akeys. rewrite in_map_iff. intros [[h' c] [Hh Hin]]. simpl in Hh. subst.
  exists (h, c_state c). split; [|reflexivity]. apply in_map_iff. exists (h, c). auto.
Qed.

(* a shard holds a target it reported if it is sent nothing, or a body made from a planned set with the target in it;
   about an arbitrary observation, so that no cycle is dragged through the case analysis *)
Lemma holds_after_body i ob k h s :
  post_at ob k = None \/ post_at ob k = Some (sort_pts (new_targets (i_active i) s)) ->
  is_active (i_active i) h = true -> In h (akeys (reported i k)) -> In h (akeys (scr_of s)) ->
  holds_after i ob k h = true.
Proof.
  intros Hp Hact Hrep Hplan. apply holds_after_iff. unfold effective.
  destruct Hp as [-> | ->]; [now apply reported_effective|].
  destruct (sh_post_ok (shard_at i k)); [|now apply reported_effective].
  destruct (new_targets_has (i_active i) s h Hact Hplan) as [t [Ht Hh]].
  exists (pt_hash t, pt_state t). split; [|assumption].
  apply in_map_iff. exists t. split; [reflexivity|]. now apply In_sort_pts.
Qed.

(* an in-sync reporter that still plans the target holds it after the cycle, whatever happens to its POST *)
Lemma holds_if_planned o i sch k h :
  is_active (i_active i) h = true -> In h (akeys (reported i k)) ->
  In h (keys_at (final_plan o i sch) k) ->
  holds_after i (obs_of (cycle o i sch)) k h = true.
Proof.
  intros Hact Hrep Hplan.
  apply (holds_after_body i _ k h (nth_si (final_plan o i sch) k)); [|exact Hact | exact Hrep | exact Hplan].
  destruct (post_at_cycle o i sch k) as [H|[_ H]]; [left | right]; exact H.
Qed.

Lemma holds_if_unsent o i sch k h :
  In h (akeys (reported i k)) -> post_at (obs_of (cycle o i sch)) k = None ->
  holds_after i (obs_of (cycle o i sch)) k h = true.
Proof.
  intros Hrep Hp. apply holds_after_iff. unfold effective. rewrite Hp. now apply reported_effective.
Qed.

Lemma cycle_no_panic o i sch : max_proc o <> 0 -> ob_panic (obs_of (cycle o i sch)) = false.
Proof.
  intros Hv. unfold obs_of. cbn [ob_panic]. rewrite o_divzero_cycle.
  pose proof (mode_of_valid o i (sst_of sch) Hv) as M. now destruct (mode_of _ _ _).
Qed.

Lemma planned_after_gc o i sch k h :
  In h (keys_at (gc o (i_active i) (map (fun sh => fst (get_info sh)) (i_shards i))) k) ->
  In h (keys_at (final_plan o i sch) k).
Proof.
  intros H. apply (le_keys _ _ (stages_le_14 o i (sst_of sch))). now rewrite stages_p1, stages_p0, recover_keys.
Qed.

(* C01, with the witness kept: an in-sync holder that reported the target still plans it at the end *)
Lemma c01_keeper o i sch h k :
  NoDupReports i -> is_active (i_active i) h = true -> insync i k = true -> In h (akeys (reported i k)) ->
  exists j, insync i j = true /\ In h (akeys (reported i j)) /\ In h (keys_at (final_plan o i sch) j).
Proof.
  intros Hnd Hact Hs Hr.
  set (p0 := map (fun sh => fst (get_info sh)) (i_shards i)).
  assert (Hin : In h (keys_at p0 k)) by (unfold p0; now rewrite keys_at_p0).
  destruct (gc_keeps_copy o (i_active i) p0 k h (nodup_p0 i Hnd) Hact Hin) as (j & Hj & Hok).
  exists j. unfold p0 in Hok. rewrite !nth_si_p0 in Hok. split; [now apply Hok|]. split; [|now apply planned_after_gc].
  (* gc only deletes, so j reported h *)
  rewrite <- keys_at_p0. exact (ge_keys _ _ j h (gc_ge o (i_active i) p0 (nodup_p0 i Hnd)) Hj).
Qed.

Theorem c01_no_orphan o i sch h :
  NoDupReports i -> max_proc o <> 0 ->
  let ob := obs_of (cycle o i sch) in
  ob_panic ob = false /\
  (is_active (i_active i) h = true ->
   (exists k, insync i k = true /\ In h (akeys (reported i k))) ->
   exists k', insync i k' = true /\ holds_after i ob k' h = true).
Proof.
  intros Hnd Hv. cbn zeta. split; [now apply cycle_no_panic|].
  intros Hact [k [Hs Hr]]. destruct (c01_keeper o i sch h k Hnd Hact Hs Hr) as (j & Hsj & Hrj & Hpj).
  exists j. split; [exact Hsj | exact (holds_if_planned o i sch j h Hact Hrj Hpj)].
Qed.

(* C05 in its natural form: a copy an in-sync shard reported and does not hold after the cycle was deleted by gc, for
   the reason gc had: both copies scraped min_wait times, and the other in-sync copy wins by state, or by load with
   ties going to the lower shard *)
Theorem taken_justified o i sch k h c :
  NoDupReports i ->
  afind h (reported i k) = Some c -> is_active (i_active i) h = true ->
  holds_after i (obs_of (cycle o i sch)) k h = false ->
  (min_wait <= c_times c)%N /\
  exists k' c', k' <> k /\ insync i k' = true /\ afind h (reported i k') = Some c' /\ (min_wait <= c_times c')%N /\
    (c_state c = InTransfer /\ c_state c' = Normal \/
     c_state c = c_state c' /\
     (load_of o (info_at i k') < load_of o (info_at i k) \/
      load_of o (info_at i k') = load_of o (info_at i k) /\ (k' < k)%nat)).
Proof.
  intros Hnd Hc Hact Hgone.
  set (p0 := map (fun sh => fst (get_info sh)) (i_shards i)).
  assert (Hc0 : afind h (scr_of (nth_si p0 k)) = Some c) by (unfold p0; now rewrite nth_si_p0, scr_of_info_at).
  destruct (afind h (scr_of (nth_si (gc o (i_active i) p0) k))) as [c1|] eqn:E.
  - rewrite holds_if_planned in Hgone; [discriminate | exact Hact | apply afind_some_keys; eauto |].
    apply planned_after_gc. apply keys_at_iff. eauto.
  - destruct (gc_deletes o (i_active i) p0 k h c (nodup_p0 i Hnd) Hc0 E) as (_ & [Hn|J]); [congruence|].
    destruct J as (Ht & k' & c' & Hne & Hok & Hc' & Ht' & Hst). unfold p0 in Hok, Hc', Hst.
    rewrite !nth_si_p0 in Hst. rewrite nth_si_p0 in Hok. rewrite nth_si_p0, scr_of_info_at in Hc'.
    split; [exact Ht|]. exists k', c'. auto 6.
Qed.

Theorem c01_taken_only_if o i sch k h :
  NoDupReports i ->
  insync i k = true -> In h (akeys (reported i k)) ->
  holds_after i (obs_of (cycle o i sch)) k h = false ->
  is_active (i_active i) h = false \/
  exists k', k' <> k /\ insync i k' = true /\ In h (akeys (reported i k')).
Proof.
  intros Hnd Hs Hr Hgone. destruct (is_active (i_active i) h) eqn:Hact; [right|now left].
  apply afind_some_keys in Hr. destruct Hr as [c Hc].
  destruct (taken_justified o i sch k h c Hnd Hc Hact Hgone) as (_ & k' & c' & Hne & Hs' & Hc' & _).
  exists k'. repeat split; [exact Hne | exact Hs' |]. apply afind_some_keys. eauto.
Qed.
