(* Proofs/CoordC04.v — C04: every placement fits; the running load an event records IS the load the shard reported in
   this cycle plus everything placed on it earlier in the cycle; hence reported load + everything placed stays below the
   limits; a target that alone exceeds a limit is skipped by assignment. *)
From KV Require Import Base.Util Base.Sched Model.Coordinator Model.CoordCheck Proofs.CoordBasics
  Proofs.CoordEvents Proofs.CoordCycle.
Local Open Scope list_scope.
Local Open Scope Z_scope.

Theorem c04_fits o i sch e : In e (o_events (cycle o i sch)) -> ev_fits o e.
Proof. intros H. apply (cycle_event_good o i sch e H). Qed.

Theorem c04_first_sized o i sch e : In e (o_events (cycle o i sch)) -> ev_sized o e.
Proof. intros H. apply (cycle_event_good o i sch e H). Qed.

(* what a list of events placed on shard k *)
Definition sum_to (f : event -> Z) (k : nat) (evs : list event) : Z :=
  fold_right (fun e a => if Nat.eqb (ev_to e) k then f e + a else a) 0 evs.
Lemma sum_to_app f k a b : sum_to f k (a ++ b) = sum_to f k a + sum_to f k b.
Proof. induction a as [|e t IH]; simpl; [reflexivity|]. rewrite IH. destruct (Nat.eqb _ _); lia. Qed.

Lemma run_load o E p evs q k : run o E p evs q ->
  si_head (nth_si q k) = si_head (nth_si p k) + sum_to ev_series k evs /\
  si_proc (nth_si q k) = si_proc (nth_si p k) + sum_to ev_total k evs.
Proof.
  intros H. induction H as [|evs q e r _ [IH1 IH2] Hs _]; [simpl; lia|].
  destruct (pstep_at o q e r k Hs) as (_ & _ & -> & -> & _). rewrite !sum_to_app, IH1, IH2. simpl.
  destruct (Nat.eqb (ev_to e) k); lia.
Qed.

(* the load an event records = the load its destination reported in this cycle + everything placed on it before *)
Theorem c04_running_load o i sch pre e post :
  o_events (cycle o i sch) = pre ++ e :: post ->
  ev_head_before e = si_head (info_at i (ev_to e)) + sum_to ev_series (ev_to e) pre /\
  ev_proc_before e = si_proc (info_at i (ev_to e)) + sum_to ev_total (ev_to e) pre.
Proof.
  intros E. pose proof (stages_run o i (sst_of sch)) as R. cbn zeta in R.
  destruct (cycle_events_prefix o i sch) as [rest Hrest]. cbn zeta in Hrest.
  rewrite Hrest, E, <- app_assoc in R. apply run_split in R. destruct R as (q & q' & Rpre & Hs & _).
  destruct (pstep_before o q e q' Hs) as [-> ->].
  destruct (run_load _ _ _ _ _ (ev_to e) Rpre) as [-> ->].
  destruct (p1_flags o i (sst_of sch) (ev_to e)) as (_ & _ & -> & ->). split; reflexivity.
Qed.

Lemma last_to k evs : (exists e, In e evs /\ ev_to e = k) ->
  exists pre e post, evs = pre ++ e :: post /\ ev_to e = k /\ forall f, sum_to f k post = 0.
Proof.
  induction evs as [|x l IH] using rev_ind; intros [e [Hin Hk]]; [destruct Hin|].
  destruct (Nat.eq_dec (ev_to x) k) as [Hx|Hx].
  - exists l, x, []. auto.
  - apply in_app_or in Hin. destruct Hin as [Hin|[->|[]]]; [|contradiction].
    destruct IH as (pre & e' & post & -> & Hk' & Hs); [now exists e|].
    exists pre, e', (post ++ [x]). split; [now rewrite <- app_assoc|]. split; [exact Hk'|].
    intros f. rewrite sum_to_app, Hs. simpl. apply Nat.eqb_neq in Hx. now rewrite Hx.
Qed.

(* the reported load of a shard plus EVERYTHING placed on it during the cycle stays strictly below the limits:
   the last placement on it fits, and records everything placed before *)
Theorem c04_total_fits o i sch k :
  (exists e, In e (o_events (cycle o i sch)) /\ ev_to e = k) ->
  (max_head o = 0 \/ si_head (info_at i k) + sum_to ev_series k (o_events (cycle o i sch)) < max_head o) /\
  si_proc (info_at i k) + sum_to ev_total k (o_events (cycle o i sch)) < max_proc o.
Proof.
  intros Hex. destruct (last_to k _ Hex) as (pre & e & post & E & Hk & Hs).
  assert (Hin : In e (o_events (cycle o i sch))) by (rewrite E; apply in_or_app; right; now left).
  destruct (c04_fits o i sch e Hin) as [F1 F2].
  destruct (c04_running_load o i sch pre e post E) as [A B]. rewrite A in F1. rewrite B in F2. rewrite Hk in F1, F2.
  rewrite E, !sum_to_app. cbn [sum_to fold_right]. fold (sum_to ev_series k post). fold (sum_to ev_total k post).
  rewrite !Hs, Hk, Nat.eqb_refl. split; [destruct F1 as [F1|F1]; [now left|right]|]; lia.
Qed.

(* a target that alone exceeds a limit is skipped by an assignment step: no placement, no needed space *)
Lemma assign_step_too_big o scraped g st h : is_too_big o (g h) = true -> assign_step o scraped g st h = st.
Proof.
  intros H. apply assign_step_skip. auto.
Qed.
