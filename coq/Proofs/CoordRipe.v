(* Proofs/CoordRipe.v — C03: one cycle on a "ripe" report (every shard in sync, every copy scraped three times) with no
   relief to do yields a clean plan: every entry is a discovered target in normal state, and no target is on two shards.
   Cleaning (gc + recovery: Proofs/CoordHandover.v) followed by an assignment that only adds targets nobody holds. *)
From KV Require Import Base.Util Base.AMap Base.Sched Gen.Consts Model.Coordinator Model.CoordCheck Proofs.CoordBasics
  Proofs.CoordEvents Proofs.CoordC01 Proofs.CoordCycle Proofs.CoordHandover Proofs.CoordStable Proofs.CoordLive.
Local Open Scope list_scope.
Local Open Scope Z_scope.

(* a clean plan: on the in-sync shards every entry is a discovered target in normal state, held by one shard *)
Record clean (active : list (N * N)) (p : plan) : Prop := {
  cl_entry : forall k h c, si_ok (nth_si p k) = true -> afind h (scr_of (nth_si p k)) = Some c ->
             is_active active h = true /\ c_state c = Normal;
  cl_single : forall k j h c, k <> j -> si_ok (nth_si p k) = true -> si_ok (nth_si p j) = true ->
              afind h (scr_of (nth_si p k)) = Some c -> afind h (scr_of (nth_si p j)) = None;
}.

(* what is left on an in-sync shard after cleaning is the one copy cleaning_leaves_one_normal_copy speaks of *)
Lemma cleaned_copy o active p k h c :
  nodup_plan p ->
  (forall k h c, si_ok (nth_si p k) = true -> afind h (scr_of (nth_si p k)) = Some c -> (min_wait <= c_times c)%N) ->
  si_ok (nth_si p k) = true -> afind h (scr_of (nth_si (recover (gc o active p)) k)) = Some c ->
  is_active active h = true /\ c_state c = Normal /\
  forall j, j <> k -> si_ok (nth_si p j) = true -> afind h (scr_of (nth_si (recover (gc o active p)) j)) = None.
Proof.
  intros Hnd Hripe Hok Hf.
  destruct (afind h (scr_of (nth_si (gc o active p) k))) as [c0|] eqn:E0; [|now rewrite afind_recover, E0 in Hf].
  assert (Hact := gc_active o active p k h c0 Hnd Hok E0).
  destruct (cleaning_leaves_one_normal_copy o active p h Hact Hnd) as (w & Hwok & [c' [Ew Hn]] & Ho).
  - exists k, c0. split; [exact Hok|exact (ge_sub _ _ (gc_ge o active p Hnd) _ _ _ E0)].
  - intros j cj. apply Hripe.
  - destruct (Nat.eq_dec k w) as [->|Hkw]; [|rewrite (Ho k Hkw Hok) in Hf; discriminate].
    rewrite Ew in Hf. injection Hf as <-. auto.
Qed.

Theorem cleaning_gives_clean o active p :
  nodup_plan p ->
  (forall k h c, si_ok (nth_si p k) = true -> afind h (scr_of (nth_si p k)) = Some c -> (min_wait <= c_times c)%N) ->
  clean active (recover (gc o active p)).
Proof.
  intros Hnd Hripe.
  assert (Hflag : forall k, si_ok (nth_si (recover (gc o active p)) k) = si_ok (nth_si p k)).
  { intros k. rewrite (proj1 (recover_flags _ k)). apply (proj1 (gc_flags o active p k)). }
  constructor.
  - intros k h c Hok Hf. rewrite Hflag in Hok. destruct (cleaned_copy o active p k h c Hnd Hripe Hok Hf) as (A & B & _). auto.
  - intros k j h c Hne Hk Hj Hf. rewrite Hflag in Hk, Hj.
    destruct (cleaned_copy o active p k h c Hnd Hripe Hk Hf) as (_ & _ & C). apply C; [congruence|exact Hj].
Qed.

(* assignment on a clean plan only adds targets nobody holds, each to one shard *)
Section AssignClean.
Variables (o : opts) (active : list (N * N)) (g : N -> cstat) (p2 : plan).
Hypothesis Hclean : clean active p2.
Let scraped := fun h => existsb (fun si => amem h (scr_of si)) p2.
Hypothesis HgN : forall h, is_active active h = true -> scraped h = false -> c_state (g h) = Normal.

(* an unscraped target is on at most one shard while the keys are visited: a key is visited once, and is placed once *)
Lemma fold_assign_single st0 : as_plan st0 = p2 -> forall l, NoDup l -> forall k j h, k <> j -> scraped h = false ->
  afind h (scr_of (nth_si (as_plan (fold_left (assign_step o scraped g) l st0)) k)) <> None ->
  afind h (scr_of (nth_si (as_plan (fold_left (assign_step o scraped g) l st0)) j)) = None.
Proof.
  intros Hp. induction l as [|x l IH] using rev_ind; intros Hnd k j h Hne Hs Hf.
  { cbn [fold_left]. rewrite Hp. now apply afind_unscraped. }
  apply NoDup_remove in Hnd. rewrite app_nil_r in Hnd. destruct Hnd as [Hl Hx].
  rewrite fold_left_app in Hf |- *. cbn [fold_left] in Hf |- *.
  destruct (assign_step_cases o scraped g (fold_left (assign_step o scraped g) l st0) x)
    as [[E _]|(jx & Hsx & Hjx & E & _)]; rewrite E in Hf |- *; [now apply (IH Hl k)|].
  (* x is placed now: nobody had it, since it is unscraped and was not visited before *)
  assert (Hnone : forall k', afind x (scr_of (nth_si (as_plan (fold_left (assign_step o scraped g) l st0)) k')) = None).
  { intros k'. destruct (afind x _) as [c|] eqn:Ec; [exfalso|reflexivity].
    apply (fold_assign_entry o scraped g) in Ec. rewrite Hp in Ec. destruct Ec as [Ec|[Hin _]]; [|contradiction].
    rewrite (afind_unscraped p2 x k' Hsx) in Ec. discriminate. }
  rewrite (afind_place _ _ k _ _ _ Hjx) in Hf. rewrite (afind_place _ _ j _ _ _ Hjx).
  destruct (N.eqb_spec h x) as [->|Hh]; rewrite ?andb_false_r, ?andb_true_r in Hf |- *; [|now apply (IH Hl k)].
  destruct (Nat.eqb_spec jx j) as [<-|]; [exfalso|apply Hnone].
  destruct (Nat.eqb_spec jx k) as [->|]; [congruence|]. apply Hf, Hnone.
Qed.

Theorem assign_keeps_clean s : NoDup (akeys active) ->
  clean active (fst (fst (fst (assign o active g p2 s)))).
Proof.
  intros Hnda. pose proof (run_le _ _ _ _ _ (assign_run o active g p2 s)) as Hle. revert Hle.
  unfold assign. pose proof (order_perm (akeys active) s) as Hperm.
  destruct (order (akeys active) s) as [keys s1]. cbn [fst snd] in *. intros Hle.
  assert (Hndk : NoDup keys).
  { eapply Permutation.Permutation_NoDup; [apply Permutation.Permutation_sym; exact Hperm|exact Hnda]. }
  assert (Hact : forall h, In h keys -> is_active active h = true).
  { intros h Hin. unfold is_active. apply amem_keys. eapply Permutation.Permutation_in; [exact Hperm|exact Hin]. }
  constructor.
  - intros k h c Hok Hf. apply (fold_assign_entry o scraped g) in Hf. destruct Hf as [H|(Hin & Hs & ->)].
    + apply (cl_entry active p2 Hclean k h c); [now rewrite (le_ok _ _ Hle)|exact H].
    + split; [now apply Hact|apply HgN; [now apply Hact|exact Hs]].
  - intros k j h c Hne Hk Hj Hf. rewrite <- (le_ok _ _ Hle) in Hk, Hj. destruct (scraped h) eqn:Es.
    + (* a scraped target is never placed: both copies would be copies of p2 *)
      destruct (afind h (scr_of (nth_si _ j))) as [c'|] eqn:E; [exfalso|reflexivity].
      apply (fold_assign_entry o scraped g) in Hf, E. cbn [as_plan] in Hf, E. destruct Hf as [Hf|(_ & Hf & _)]; [|congruence].
      destruct E as [E|(_ & E & _)]; [|congruence].
      rewrite (cl_single active p2 Hclean k j h c Hne Hk Hj Hf) in E. discriminate.
    + apply (fold_assign_single {| as_plan := p2; as_need := (0, 0); as_events := []; as_sst := s1 |} eq_refl
               keys Hndk k j h Hne Es). unfold scraped. now rewrite Hf.
Qed.
End AssignClean.

Theorem ripe_cycle_gives_clean_plan o i s :
  NoDupReports i -> NoDup (akeys (i_active i)) ->
  (forall k h c, afind h (reported i k) = Some c -> (3 <= c_times c)%N) ->
  (forall h c, afind h (i_explore i) = Some c -> c_state c = Normal) ->
  calm o (st_p1 (run_stages o i s)) ->
  clean (i_active i) (st_p3 (run_stages o i s)).
Proof.
  intros Hnd Hnda Hripe Hexp Hcalm.
  rewrite stages_p3. unfold assign_of. rewrite stages_p2, (alleviate_calm o _ s Hcalm). cbn [fst snd].
  rewrite stages_p1, stages_p0. apply assign_keeps_clean; [| |exact Hnda].
  - apply cleaning_gives_clean; [now apply nodup_p0|]. intros k h c _ Hf. rewrite nth_si_p0, scr_of_info_at in Hf.
    rewrite minwait_is_3. now apply (Hripe k h c).
  - (* what assignment places is in normal state: nobody holds it, so its status comes from the explorer *)
    intros h Hact Hs. unfold global_status. destruct (first_known _ h) as [c|] eqn:Ef.
    + exfalso. destruct (first_known_entry _ h c Ef) as [k [Hk Hf]]. rewrite map_length in Hk.
      (* a shard reports h, so after cleaning a shard still plans it (C01): h is not unscraped *)
      destruct (gc_keeps_copy o (i_active i) _ k h (nodup_p0 i Hnd) Hact) as (j & Hinj & _).
      { apply keys_at_iff. eauto. }
      rewrite <- recover_keys in Hinj. rewrite (amem_existsb _ _ j Hinj) in Hs. discriminate.
    + destruct (afind h (i_explore i)) as [c|] eqn:Ee; [now apply (Hexp h c)|reflexivity].
Qed.
