(* Proofs/DiscoveryProofs.v — C17: the discovered target sets follow updates and reloads.
   The specification `latest` is a backward scan of the history, independent of the state machine in
   Model/Discovery.v; the theorems hold for every translation function `tr`. *)
From KV Require Import Base.Util Base.AMap Model.Explore Model.Discovery.
Local Open Scope list_scope.

Section DiscProofs.
Context {G T : Type}.
Variable tr : N -> G -> list T * list T.

(* the entry of job j in one update message (a Go map: one entry per job; with a repeated key the last one counts) *)
Fixpoint last_entry (j : N) (m : list (N * G)) : option G :=
  match m with
  | [] => None
  | (k, g) :: r => match last_entry j r with Some g' => Some g' | None => if N.eqb j k then Some g else None end
  end.

Definition cfg_of (jobs : list (N * N)) : amap N := fold_left (fun c jv => aset (fst jv) (snd jv) c) jobs [].

(* histories below are listed most recent operation first *)
Fixpoint cfg_after (rops : list (d_op G)) : amap N :=
  match rops with
  | [] => []
  | DReload jobs :: _ => cfg_of jobs
  | DUpdate _ :: r => cfg_after r
  end.

(* what job j must show: the translation (under the configuration in force at that moment) of its entry in the
   latest update that mentions it, provided no reload since has dropped the job *)
Fixpoint latest (j : N) (rops : list (d_op G)) : option (list T * list T) :=
  match rops with
  | [] => None
  | DReload jobs :: r => if amem j (cfg_of jobs) then latest j r else None
  | DUpdate m :: r =>
    match last_entry j m, afind j (cfg_after r) with
    | Some g, Some ver => Some (tr ver g)
    | _, _ => latest j r
    end
  end.

(* what one update message gives job j under configuration cfg *)
Definition msg_entry (cfg : amap N) (m : list (N * G)) (j : N) : option (list T * list T) :=
  match last_entry j m, afind j cfg with
  | Some g, Some ver => Some (tr ver g)
  | _, _ => None
  end.

Lemma latest_update j m r :
  latest j (DUpdate m :: r) = match msg_entry (cfg_after r) m j with Some p => Some p | None => latest j r end.
Proof. cbn [latest]. unfold msg_entry. now destruct (last_entry j m), (afind j (cfg_after r)). Qed.

Lemma entry_none cfg m j : last_entry j m = None \/ afind j cfg = None -> msg_entry cfg m j = None.
Proof. unfold msg_entry. intros [-> | ->]; [reflexivity | now destruct (last_entry j m)]. Qed.

Lemma last_entry_snoc j m k g : last_entry j (m ++ [(k, g)]) = if N.eqb j k then Some g else last_entry j m.
Proof.
  induction m as [|[k' g'] r IH]; cbn [app last_entry]; [reflexivity|]. rewrite IH. now destruct (N.eqb j k).
Qed.

(* a later entry for the same job wins, if the job is configured *)
Lemma entry_snoc cfg m k g j :
  msg_entry cfg (m ++ [(k, g)]) j =
  match (if N.eqb j k then option_map (fun ver => tr ver g) (afind j cfg) else None) with
  | Some p => Some p
  | None => msg_entry cfg m j
  end.
Proof.
  unfold msg_entry. rewrite last_entry_snoc.
  destruct (N.eqb j k); [|reflexivity]. destruct (afind j cfg); [reflexivity | now destruct (last_entry j m)].
Qed.

Lemma upd_job_unfold cfg acc jg :
  upd_job tr cfg acc jg =
  match afind (fst jg) cfg with
  | None => acc
  | Some ver => (aset (fst jg) (fst (tr ver (snd jg))) (fst (fst acc)),
                 aset (fst jg) (snd (tr ver (snd jg))) (snd (fst acc)),
                 aset (fst jg) (fst (tr ver (snd jg))) (snd acc))
  end.
Proof.
  unfold upd_job. destruct acc as [[a d] m]. cbn [fst snd].
  destruct (afind (fst jg) cfg) as [ver|]; [|reflexivity]. now destruct (tr ver (snd jg)).
Qed.

Lemma fold_upd cfg acc j m :
  afind j (fst (fst (fold_left (upd_job tr cfg) m acc))) =
    match msg_entry cfg m j with Some p => Some (fst p) | None => afind j (fst (fst acc)) end /\
  afind j (snd (fst (fold_left (upd_job tr cfg) m acc))) =
    match msg_entry cfg m j with Some p => Some (snd p) | None => afind j (snd (fst acc)) end /\
  afind j (snd (fold_left (upd_job tr cfg) m acc)) =
    match msg_entry cfg m j with Some p => Some (fst p) | None => afind j (snd acc) end.
Proof.
  induction m as [|[k g] m IH] using rev_ind; [now cbn|].
  rewrite fold_left_app, entry_snoc. cbn [fold_left]. set (r := fold_left (upd_job tr cfg) m acc) in *.
  rewrite upd_job_unfold. cbn [fst snd]. destruct (afind k cfg) as [ver|] eqn:Ek.
  - cbn [fst snd]. rewrite !afind_aset. destruct (N.eqb_spec j k) as [->|]; [|exact IH].
    rewrite Ek. cbn [option_map]. auto.
  - destruct (N.eqb_spec j k) as [->|]; [rewrite Ek|]; exact IH.
Qed.

Lemma d_update_find s m j :
  afind j (d_active (d_update tr s m)) =
    match msg_entry (d_cfg s) m j with Some p => Some (fst p) | None => afind j (d_active s) end /\
  afind j (d_dropped (d_update tr s m)) =
    match msg_entry (d_cfg s) m j with Some p => Some (snd p) | None => afind j (d_dropped s) end /\
  afind j (last (d_sent (d_update tr s m)) []) = option_map fst (msg_entry (d_cfg s) m j).
Proof.
  unfold d_update. destruct (fold_upd (d_cfg s) (d_active s, d_dropped s, []) j m) as (Ha & Hd & Hm).
  destruct (fold_left _ m _) as [[a d] g]. cbn [d_active d_dropped d_sent fst snd] in *.
  rewrite last_last, Hm, Ha, Hd. destruct (msg_entry (d_cfg s) m j); auto.
Qed.

Lemma amem_cfg_of jobs j : amem j (cfg_of jobs) = existsb (N.eqb j) (map fst jobs).
Proof.
  unfold cfg_of.
  enough (H : forall c : amap N, amem j (fold_left (fun c jv => aset (fst jv) (snd jv) c) jobs c) =
                                 existsb (N.eqb j) (map fst jobs) || amem j c) by (rewrite H; apply orb_false_r).
  induction jobs as [|jv r IH]; intros c; cbn [fold_left map existsb]; [reflexivity|].
  rewrite IH, amem_aset. now destruct (N.eqb j (fst jv)), (existsb (N.eqb j) (map fst r)).
Qed.

Lemma afind_keep (act m : amap (list T)) jobs j :
  afind j (flat_map (fun jv : N * N => match afind (fst jv) act, afind (fst jv) m with
                                       | Some _, Some v => [(fst jv, v)]
                                       | Some _, None => [(fst jv, [])]
                                       | None, _ => []
                                       end) jobs) =
  if amem j (cfg_of jobs) then
    match afind j act with Some _ => Some (match afind j m with Some v => v | None => [] end) | None => None end
  else None.
Proof.
  rewrite amem_cfg_of.
  rewrite <- (afind_flat_map_opt fst (fun k => match afind k act with
                                              | Some _ => Some (match afind k m with Some v => v | None => [] end)
                                              | None => None
                                              end)).
  f_equal. apply flat_map_ext. intros jv. now destruct (afind (fst jv) act), (afind (fst jv) m).
Qed.

Theorem follows_latest ops j :
  let s := d_run tr d_init ops in
  d_cfg s = cfg_after (rev ops) /\
  afind j (d_active s) = option_map fst (latest j (rev ops)) /\
  afind j (d_dropped s) = option_map snd (latest j (rev ops)).
Proof.
  cbv zeta. induction ops as [|op ops (Hc & Ha & Hd)] using rev_ind; [now cbn|].
  unfold d_run in *. rewrite fold_left_app, rev_unit. cbn [fold_left].
  set (s := fold_left (d_step tr) ops d_init) in *. destruct op as [m|jobs]; cbn [d_step cfg_after].
  - destruct (d_update_find s m j) as (Ua & Ud & _). rewrite Ua, Ud, latest_update, <- Hc.
    split; [now unfold d_update; destruct (fold_left _ m _) as [[? ?] ?]|].
    destruct (msg_entry (d_cfg s) m j); auto.
  - unfold d_reload. cbn [d_cfg d_active d_dropped latest]. split; [reflexivity|].
    rewrite !afind_keep. destruct (amem j (cfg_of jobs)); [|auto].
    rewrite Ha, Hd. destruct (latest j (rev ops)) as [[a d]|]; split; reflexivity.
Qed.

Lemma listed_iff ops j : amem j (d_active (d_run tr d_init ops)) = true <-> latest j (rev ops) <> None.
Proof.
  destruct (follows_latest ops j) as (_ & Ha & _). unfold amem. rewrite Ha.
  destruct (latest j (rev ops)); cbn; split; congruence.
Qed.

Corollary same_jobs ops j :
  let s := d_run tr d_init ops in amem j (d_active s) = amem j (d_dropped s).
Proof.
  cbv zeta. destruct (follows_latest ops j) as (_ & Ha & Hd). unfold amem. rewrite Ha, Hd.
  now destruct (latest j (rev ops)).
Qed.

Lemma latest_configured j rops : latest j rops <> None -> amem j (cfg_after rops) = true.
Proof.
  induction rops as [|[m|jobs] r IH]; cbn [latest cfg_after]; [congruence| |].
  - destruct (last_entry j m); [destruct (afind j (cfg_after r)) eqn:E|]; auto.
    intros _. unfold amem. now rewrite E.
  - destruct (amem j (cfg_of jobs)); congruence.
Qed.

Corollary only_configured ops j :
  let s := d_run tr d_init ops in amem j (d_active s) = true -> amem j (d_cfg s) = true.
Proof.
  cbv zeta. intros H. destruct (follows_latest ops j) as (-> & _). now apply latest_configured, listed_iff.
Qed.

(* a reload is one atomic step: kept jobs keep exactly what they had, removed jobs are gone *)
Theorem reload_no_gap ops jobs j :
  let s := d_run tr d_init ops in
  let s' := d_reload s jobs in
  (In j (map fst jobs) -> afind j (d_active s') = afind j (d_active s) /\ afind j (d_dropped s') = afind j (d_dropped s)) /\
  (~ In j (map fst jobs) -> afind j (d_active s') = None /\ afind j (d_dropped s') = None).
Proof.
  cbv zeta. unfold d_reload. cbn [d_active d_dropped].
  rewrite !afind_keep, <- (existsb_eqb_in j (map fst jobs)), <- amem_cfg_of.
  destruct (amem j (cfg_of jobs)); split; try congruence; [|auto]. intros _.
  pose proof (same_jobs ops j) as Hs. cbv zeta in Hs. unfold amem in Hs.
  destruct (afind j (d_active _)), (afind j (d_dropped _)); try discriminate; auto.
Qed.

(* an update leaves every job it does not mention (or that is not configured) untouched *)
Theorem update_others_untouched s m j :
  last_entry j m = None \/ afind j (d_cfg s) = None ->
  afind j (d_active (d_update tr s m)) = afind j (d_active s) /\
  afind j (d_dropped (d_update tr s m)) = afind j (d_dropped s).
Proof.
  intros H. destruct (d_update_find s m j) as (Ua & Ud & _). now rewrite Ua, Ud, (entry_none _ _ _ H).
Qed.

(* the message handed to the explorer carries, for every configured job of the update, its new active list *)
Theorem message_content s m j :
  afind j (last (d_sent (d_update tr s m)) []) =
  match last_entry j m, afind j (d_cfg s) with
  | Some g, Some ver => Some (fst (tr ver g))
  | _, _ => None
  end.
Proof.
  destruct (d_update_find s m j) as (_ & _ & ->). unfold msg_entry.
  now destruct (last_entry j m), (afind j (d_cfg s)).
Qed.

(* WaitInit's condition *)
Theorem init_done_iff ops :
  let s := d_run tr d_init ops in
  d_init_done s = true <-> forall j, In j (akeys (d_cfg s)) -> latest j (rev ops) <> None.
Proof.
  cbv zeta. unfold d_init_done. rewrite forallb_forall. split.
  - intros H j Hj. apply in_map_iff in Hj. destruct Hj as [jv [<- Hin]]. apply listed_iff, (H jv Hin).
  - intros H jv Hin. apply listed_iff, H, in_map, Hin.
Qed.
End DiscProofs.

(* the explorer's table (Model/Explore.v) fed with these messages *)
Lemma update_visit_table old acc jh :
  x_table (update_visit old acc jh) = aset (snd jh) (match afind (snd jh) old with Some id => id | None => x_next acc end) (x_table acc).
Proof. unfold update_visit. destruct jh as [job h]. cbn [snd]. destruct (afind h old); reflexivity. Qed.

Lemma fold_visit_keys old pairs : forall acc h,
  In h (akeys (x_table (fold_left (update_visit old) pairs acc))) <-> In h (akeys (x_table acc)) \/ In h (map snd pairs).
Proof.
  induction pairs as [|jh r IH]; intros acc h; cbn [fold_left map].
  - simpl. tauto.
  - rewrite IH, update_visit_table, In_akeys_aset. simpl. intuition congruence.
Qed.

(* after UpdateTargets the explorer tracks exactly the targets of that message *)
Theorem explorer_tracks_message x msg h :
  In h (akeys (x_table (do_update x msg))) <-> exists j l, In (j, l) msg /\ In h l.
Proof.
  unfold do_update. rewrite fold_visit_keys. cbn [x_table akeys map].
  rewrite in_map_iff. split.
  - intros [[]|[[j h'] [<- Hin]]]. apply in_flat_map in Hin. destruct Hin as [[j' l] [Hm Hl]].
    apply in_map_iff in Hl. destruct Hl as [h'' [[= <- <-] Hl]]. cbn [snd]. eauto.
  - intros [j [l [Hm Hl]]]. right. exists (j, h). split; [reflexivity|].
    apply in_flat_map. exists (j, l). split; [assumption|]. apply in_map_iff. eauto.
Qed.

(* a reload prunes exactly the entries whose job is gone; nothing else changes *)
Theorem explorer_reload_prunes x jobs h id :
  NoDup (akeys (x_table x)) ->
  (afind h (x_table (do_apply x jobs)) = Some id <->
   afind h (x_table x) = Some id /\ In (e_job (obj x id)) jobs).
Proof.
  intros Hnd. unfold do_apply. cbn [x_table]. rewrite <- existsb_eqb_in. now apply afind_filter_iff.
Qed.
