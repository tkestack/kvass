(* Proofs/ProxyProofs.v — lemmas about Model/Proxy.v (C12, C13). *)
From KV Require Import Base.Util Model.Proxy.
Local Open Scope list_scope.
Local Open Scope Z_scope.

Section P.
Context {A : Type}.
Notation rwriter := (rwriter A).

Definition accepting (b : wbeh) : Prop := match b with WAccept _ => True | WFail => False end.

(* everything a client can observe of the writer, i.e. all but the log of Write calls *)
Definition core (w : rwriter) : option Z * option N * option N * list A :=
  (rw_code w, rw_ctype w, rw_pending_ctype w, rw_body w).
(* the effect of sending the bytes p (in any number of Write calls) *)
Definition core_push (x : option Z * option N * option N * list A) (p : list A) :=
  match p with
  | [] => x
  | _ :: _ =>
    let '(c, ct, pc, b) := x in
    (Some (match c with Some v => v | None => 200 end), (match c with Some _ => ct | None => pc end), pc, b ++ p)
  end.

Lemma core_push_app x a b : core_push (core_push x a) b = core_push x (a ++ b).
Proof.
  destruct x as [[[c ct] pc] bd]. destruct a as [|a0 a']; [reflexivity|].
  destruct b as [|b0 b']; [now rewrite app_nil_r|].
  cbn [core_push app]. destruct c; now rewrite <- app_assoc.
Qed.

Lemma accept_count k (p : list A) : p <> [] -> (1 <= Nat.max 1 (Nat.min k (length p)) <= length p)%nat.
Proof. intros H. destruct p; [congruence|]. simpl length. lia. Qed.

Lemma core_write_accept w p k : p <> [] ->
  let n := Nat.max 1 (Nat.min k (length p)) in
  core (fst (rw_write w p (WAccept k))) = core_push (core w) (firstn n p) /\ snd (rw_write w p (WAccept k)) = Some n.
Proof.
  intros Hp. cbn zeta. split; [|reflexivity].
  destruct (accept_count k p Hp) as [H1 _].
  destruct (Nat.max 1 (Nat.min k (length p))) as [|n] eqn:E; [lia|].
  destruct p as [|a p']; [congruence|].
  unfold rw_write, core, rw_write_header. cbn [fst]. rewrite E. cbn [firstn core_push].
  destruct (rw_code w) eqn:Ec; cbn [rw_code rw_ctype rw_pending_ctype rw_body]; rewrite ?Ec; reflexivity.
Qed.

(* the write loop of one chunk: every byte of the chunk goes out, in order, whatever the short writes *)
Lemma tee_chunk_accept fuel (w : rwriter) p sched :
  (length p < fuel)%nat -> Forall accepting sched ->
  let r := tee_chunk fuel w p sched in
  snd r = false /\ Forall accepting (snd (fst r)) /\ core (fst (fst r)) = core_push (core w) p.
Proof.
  revert w p sched. induction fuel as [|f IH]; intros w p sched Hf Hs; [lia|].
  cbn zeta. cbn [tee_chunk]. destruct p as [|a p']; [cbn; auto|].
  set (p := a :: p') in *. assert (Hp : p <> []) by discriminate.
  assert (Step : forall k rest, Forall accepting rest ->
            let r := match rw_write w p (WAccept k) with
                     | (w', None) => (w', rest, true)
                     | (w', Some n) => tee_chunk f w' (skipn n p) rest
                     end in
            snd r = false /\ Forall accepting (snd (fst r)) /\ core (fst (fst r)) = core_push (core w) p).
  { intros k rest Hrest. cbn zeta.
    destruct (core_write_accept w p k Hp) as [Hc Hn]. cbn zeta in *.
    destruct (accept_count k p Hp) as [Hlo Hhi].
    destruct (rw_write w p (WAccept k)) as [w' res]. cbn [fst snd] in *. subst res.
    set (n := Nat.max 1 (Nat.min k (length p))) in *.
    destruct (IH w' (skipn n p) rest) as [H1 [H2 H3]];
      [rewrite skipn_length; lia | assumption |].
    cbn zeta in *. split; [assumption|]. split; [assumption|].
    rewrite H3, Hc, core_push_app, firstn_skipn. reflexivity. }
  destruct sched as [|b rest].
  - apply (Step (length p) []). constructor.
  - inversion Hs as [|? ? Hb Hrest]; subst. destruct b as [k|]; [|contradiction]. now apply Step.
Qed.

(* how reading ends decides the result; a failing Write never shows in it *)
Lemma consume_snd (w : rwriter) chunks e sched fwd :
  snd (consume w chunks e sched fwd) = match e with EndEOF => COk | _ => CReadErr end.
Proof.
  revert w sched. induction chunks as [|c rest IH]; intros w sched; cbn [consume]; [now destruct e|].
  destruct fwd; [destruct (tee_chunk _ w c sched) as [[w' sched'] failed]|]; apply IH.
Qed.

Lemma consume_core (w : rwriter) chunks e sched :
  Forall accepting sched -> core (fst (consume w chunks e sched true)) = core_push (core w) (concat chunks).
Proof.
  revert w sched. induction chunks as [|c rest IH]; intros w sched Hs; cbn [consume concat]; [reflexivity|].
  destruct (tee_chunk_accept (S (length c)) w c sched) as (_ & H2 & H3); [lia | assumption |]. cbv zeta in *.
  destruct (tee_chunk (S (length c)) w c sched) as [[w' sched'] failed]. cbn [fst snd] in *.
  now rewrite (IH w' sched' H2), H3, core_push_app.
Qed.

Lemma consume_noforward (w : rwriter) chunks e sched : fst (consume w chunks e sched false) = w.
Proof. induction chunks as [|c rest IH]; cbn [consume]; [reflexivity | assumption]. Qed.

(* header/body coherence for EVERY schedule (failing writes included) *)
Definition coherent (w : rwriter) : Prop := rw_body w = [] -> rw_code w = None.

Lemma coherent_write w p b : p <> [] -> coherent w -> coherent (fst (rw_write w p b)).
Proof.
  intros Hp Hc. unfold coherent, rw_write in *. destruct b as [k|]; cbn [fst rw_body rw_code]; [|assumption].
  intros H. exfalso. apply app_eq_nil in H. destruct H as [_ H].
  destruct (accept_count k p Hp) as [Hlo _].
  destruct (Nat.max 1 (Nat.min k (length p))); [lia|]. destruct p; [congruence | discriminate].
Qed.

Lemma coherent_tee fuel (w : rwriter) p sched : coherent w -> coherent (fst (fst (tee_chunk fuel w p sched))).
Proof.
  revert w p sched. induction fuel as [|f IH]; intros w p sched Hc; [exact Hc|].
  cbn [tee_chunk]. destruct p as [|a p']; [exact Hc|].
  destruct (match sched with [] => (WAccept (length (a :: p')), []) | b :: r => (b, r) end) as [b rest].
  pose proof (coherent_write w (a :: p') b ltac:(discriminate) Hc) as Hw.
  destruct (rw_write w (a :: p') b) as [w' [n|]]; cbn [fst] in *; [now apply IH | exact Hw].
Qed.

Lemma coherent_consume (w : rwriter) chunks e sched fwd : coherent w -> coherent (fst (consume w chunks e sched fwd)).
Proof.
  revert w sched. induction chunks as [|c rest IH]; intros w sched Hc; cbn [consume]; [exact Hc|].
  destruct fwd; [|now apply IH].
  pose proof (coherent_tee (S (length c)) w c sched Hc) as Ht.
  destruct (tee_chunk (S (length c)) w c sched) as [[w' sched'] failed]. cbn [fst] in *. now apply IH.
Qed.

Definition reached (q : preq A) : bool := pq_job_known q && pq_hash_ok q.
Definition effective_ctype (w : rwriter) : option N :=
  match rw_code w with Some _ => rw_ctype w | None => rw_pending_ctype w end.

Lemma reached_guard q : negb (pq_job_known q) || negb (pq_hash_ok q) = negb (reached q).
Proof. unfold reached. now destruct (pq_job_known q), (pq_hash_ok q). Qed.

(* what a client sees of a writer that was given the content type and then the bytes p *)
Lemma pushed_seen (w : rwriter) ctype p :
  core w = core_push (None, None, Some ctype, []) p ->
  rw_body w = p /\ effective_ctype w = Some ctype /\ match rw_code w with Some c => c | None => 200 end = 200.
Proof.
  unfold core, effective_ctype. destruct p; cbn [core_push app]; intros [= -> Hct Hpc ->]; rewrite ?Hct, ?Hpc; auto.
Qed.

Lemma write_header_body (w : rwriter) c : rw_body (rw_write_header w c) = rw_body w.
Proof. unfold rw_write_header. now destruct (rw_code w). Qed.

Theorem serve_success q ctype chunks :
  reached q = true -> pq_stopped q = false -> pq_resp q = TBody ctype chunks EndEOF -> Forall accepting (pq_sched q) ->
  let r := serve q in
  final_code r = 200 /\ rw_body (pr_writer r) = concat chunks /\ effective_ctype (pr_writer r) = Some ctype /\
  pr_aborted r = false /\ pr_success r = true /\ pr_stats_updated r = true.
Proof.
  intros Hr Hst Hresp Hs. cbn zeta. unfold serve. rewrite reached_guard, Hr, Hresp, Hst. cbn [negb].
  pose proof (consume_snd (rw_set_ctype rw_empty ctype) chunks EndEOF (pq_sched q) true) as Hres.
  pose proof (consume_core (rw_set_ctype rw_empty ctype) chunks EndEOF (pq_sched q) Hs) as Hc.
  destruct (consume _ chunks EndEOF _ true) as [w res]. cbn [fst snd] in *. subst res.
  destruct (pushed_seen w ctype _ Hc) as (Hb & Hct & Hcode). unfold final_code. cbn [pr_writer pr_aborted pr_success pr_stats_updated].
  repeat split; assumption.
Qed.

(* the bytes sent so far are always the bytes read so far (accepting writers), whatever the stream's end *)
Theorem serve_forwards_what_was_read q ctype chunks e :
  reached q = true -> pq_stopped q = false -> pq_resp q = TBody ctype chunks e -> Forall accepting (pq_sched q) ->
  rw_body (pr_writer (serve q)) = concat chunks.
Proof.
  intros Hr Hst Hresp Hs. unfold serve. rewrite reached_guard, Hr, Hresp, Hst. cbn [negb].
  pose proof (consume_core (rw_set_ctype rw_empty ctype) chunks e (pq_sched q) Hs) as Hc.
  destruct (consume _ chunks e _ true) as [w res]. cbn [fst] in Hc. apply pushed_seen in Hc. destruct Hc as (Hb & _).
  destruct res; cbn [pr_writer]; rewrite ?write_header_body; exact Hb.
Qed.

(* C13: a failed real scrape, or a stopped one, never looks like a complete 200 — for every schedule *)
Definition real_failure (q : preq A) : Prop :=
  match pq_resp q with
  | TConnErr | TStatus _ => True
  | TBody _ _ EndEOF => False
  | TBody _ _ _ => True
  end.

Theorem serve_failure_visible q :
  reached q = true -> real_failure q \/ pq_stopped q = true ->
  let r := serve q in (final_code r <> 200 \/ pr_aborted r = true) /\ pr_success r = false.
Proof.
  intros Hr Hf. cbn zeta. unfold serve. rewrite reached_guard, Hr. cbn [negb]. unfold real_failure in Hf.
  destruct (pq_resp q) as [|code|ctype chunks e].
  1, 2: cbn; split; [left; discriminate | reflexivity].
  assert (Hc0 : coherent (rw_set_ctype (@rw_empty A) ctype)) by (intros _; reflexivity).
  pose proof (coherent_consume _ chunks e (pq_sched q) (negb (pq_stopped q)) Hc0) as Hc.
  pose proof (consume_snd (rw_set_ctype rw_empty ctype) chunks e (pq_sched q) (negb (pq_stopped q))) as Hres.
  assert (He : (e = EndEOF /\ pq_stopped q = true) \/ e <> EndEOF) by (destruct e, Hf as [[]|Hst]; auto; right; discriminate).
  destruct He as [[-> Hst]|He].
  - (* read to its end without error, but stopped: nothing was forwarded, so the header is still free *)
    rewrite Hst in *. cbn [negb] in *.
    pose proof (consume_noforward (rw_set_ctype rw_empty ctype) chunks EndEOF (pq_sched q)) as Hw.
    destruct (consume _ chunks EndEOF _ false) as [w res]. cbn [fst snd] in *. subst w res.
    cbn. split; [left; discriminate | reflexivity].
  - (* reading failed: 400 if the header is still free, otherwise the response is aborted *)
    destruct (consume _ chunks e _ _) as [w res]. cbn [fst snd] in *.
    replace res with CReadErr by (rewrite Hres; destruct e; congruence).
    cbn [pr_writer pr_aborted pr_success]. split; [|reflexivity].
    destruct (rw_body w) eqn:Eb; [left | right; reflexivity].
    unfold final_code, rw_write_header. cbn [pr_writer]. rewrite (Hc Eb). discriminate.
Qed.

(* bookkeeping: an attempt is made iff the request got past job / hash validation *)
Theorem serve_attempted q : pr_attempted (serve q) = reached q.
Proof.
  unfold serve. rewrite reached_guard. destruct (reached q); cbn [negb]; [|reflexivity].
  destruct (pq_resp q) as [|c|ct ch e]; cbn; try reflexivity.
  destruct (consume _ _ _ _ _) as [w res]. destruct res; cbn; try reflexivity. destruct (pq_stopped q); reflexivity.
Qed.

Theorem serve_rejected q : reached q = false ->
  final_code (serve q) = 400 /\ rw_body (pr_writer (serve q)) = [] /\ pr_attempted (serve q) = false.
Proof. intros H. unfold serve. rewrite reached_guard, H. cbn. auto. Qed.
End P.
