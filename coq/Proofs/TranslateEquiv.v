(* Proofs/TranslateEquiv.v — C02: the sharded route and one plain Prometheus see the same targets.
   Label sets are compared extensionally (the value of every name; "" = absent), queries key by key. *)
From KV Require Import Base.Util Base.StrFacts Model.Inject Model.Translate Proofs.TranslateProofs.
Local Open Scope list_scope.
Local Open Scope string_scope.

Definition I_ : string := "__scrape_interval__".
Definition T_ : string := "__scrape_timeout__".

(* populateLabels before relabeling: the job's defaults under the discovered labels (wi: with the two interval labels, as
   the Prometheus library does and kvass's copy does not), then the configured parameters *)
Definition pre (wi : bool) (c : jobcfg) (d : labels) : labels :=
  let m0 := set_if_empty "job" (jc_name c) d d in
  let m1 := if wi then set_if_empty T_ (jc_timeout c) d (set_if_empty I_ (jc_interval c) d m0) else m0 in
  let m2 := set_if_empty "__scheme__" (jc_scheme c) d (set_if_empty "__metrics_path__" (jc_path c) d m1) in
  set_params (jc_params c) m2.

(* populateLabels after relabeling: the address with its port, no __meta_ labels, `instance` defaulted *)
Definition fin_labels (l : labels) (addr : string) : labels :=
  let m3 := del_meta (lb_set "__address__" addr l) in
  if String.eqb (lval "instance" l) "" then lb_set "instance" addr m3 else m3.

(* addPort: an address that got its port no longer needs one *)
Definition port_added (np : string -> bool) : Prop :=
  forall a, np a = true -> np (a ++ ":80") = false /\ np (a ++ ":443") = false.

Section Finish.
Variable np : string -> bool.
Variable aok : string -> bool.
Variable iok : string -> string -> bool.

Definition port_suffix (l : labels) : option string :=
  let a := lval "__address__" l in
  let sch := lval "__scheme__" l in
  if np a then (if String.eqb sch "http" || String.eqb sch "" then Some ":80" else if String.eqb sch "https" then Some ":443" else None)
  else Some "".

(* the address the target ends up with, if it is acceptable *)
Definition final_addr (l : labels) : option string :=
  if String.eqb (lval "__address__" l) "" then None else
  match port_suffix l with
  | Some suffix => let addr := lval "__address__" l ++ suffix in if aok addr then Some addr else None
  | None => None
  end.

(* populate: relabel, then the address check, then (on the shard and in one Prometheus) the interval check *)
Lemma populate_closed R wi c d :
  populate R np aok iok wi c d =
  match R (pre wi c d) with
  | None => Dropped
  | Some l => match final_addr l with
              | Some addr => if wi && negb (iok (lval I_ l) (lval T_ l)) then Failed else Active (fin_labels l addr)
              | None => Failed
              end
  end.
Proof.
  unfold populate. cbv zeta. change (set_params (jc_params c) _) with (pre wi c d).
  destruct (R (pre wi c d)) as [l|]; [|reflexivity]. unfold final_addr.
  change (if np _ then _ else _) with (port_suffix l).
  destruct (String.eqb (lval "__address__" l) ""); [reflexivity|].
  destruct (port_suffix l) as [suffix|]; [|reflexivity]. destruct (aok _); reflexivity.
Qed.

Lemma final_addr_ext l l' : lval "__address__" l = lval "__address__" l' -> lval "__scheme__" l = lval "__scheme__" l' ->
  final_addr l = final_addr l'.
Proof. intros Ea Es. unfold final_addr, port_suffix. now rewrite Ea, Es. Qed.

Lemma final_addr_spec l addr : port_added np -> final_addr l = Some addr -> addr <> "" /\ np addr = false /\ aok addr = true.
Proof.
  intros Hadd. unfold final_addr. destruct (String.eqb_spec (lval "__address__" l) "") as [|Hne]; [discriminate|].
  destruct (port_suffix l) as [suffix|] eqn:Eps; [|discriminate].
  destruct (aok _) eqn:Eaok; [|discriminate]. intros [= <-]. split; [|split; [|exact Eaok]].
  - destruct (lval "__address__" l); [contradiction|discriminate].
  - unfold port_suffix in Eps. destruct (np (lval "__address__" l)) eqn:En.
    + destruct (Hadd _ En) as [H80 H443].
      destruct (_ || _); [injection Eps as <-; exact H80|].
      destruct (String.eqb _ "https"); [injection Eps as <-; exact H443|discriminate].
    + injection Eps as <-. now rewrite sapp_nil_r.
Qed.
End Finish.

Lemma lval_fin_labels k l addr :
  lval k (fin_labels l addr) =
  if String.eqb k "instance" && String.eqb (lval "instance" l) "" then addr
  else if has_prefix "__meta_" k then ""
  else if String.eqb k "__address__" then addr else lval k l.
Proof.
  unfold fin_labels. destruct (String.eqb (lval "instance" l) "") eqn:Ei.
  - rewrite lval_lb_set. destruct (String.eqb_spec k "instance") as [->|]; [reflexivity|].
    cbn [andb]. rewrite lval_del_meta, lval_lb_set. reflexivity.
  - rewrite andb_false_r. rewrite lval_del_meta, lval_lb_set. reflexivity.
Qed.

Lemma lval_fin_labels_other k l addr :
  String.eqb k "instance" = false -> has_prefix "__meta_" k = false -> String.eqb k "__address__" = false ->
  lval k (fin_labels l addr) = lval k l.
Proof. intros H1 H2 H3. now rewrite lval_fin_labels, H1, H2, H3. Qed.

Lemma wf_fin_labels l addr : lwf l -> lwf (fin_labels l addr).
Proof. intros H. unfold fin_labels, del_meta. destruct (String.eqb _ _); auto with lwf. Qed.

Lemma lval_pre wi c d k :
  lval k (pre wi c d) =
  match pfirst (jc_params c) k with
  | Some v => v
  | None =>
    if String.eqb (lval "__scheme__" d) "" && String.eqb k "__scheme__" then jc_scheme c
    else if String.eqb (lval "__metrics_path__" d) "" && String.eqb k "__metrics_path__" then jc_path c
    else if wi && String.eqb (lval T_ d) "" && String.eqb k T_ then jc_timeout c
    else if wi && String.eqb (lval I_ d) "" && String.eqb k I_ then jc_interval c
    else if String.eqb (lval "job" d) "" && String.eqb k "job" then jc_name c
    else lval k d
  end.
Proof.
  unfold pre. rewrite lval_set_params. destruct (pfirst (jc_params c) k); [reflexivity|].
  rewrite !lval_set_if_empty. destruct wi; now rewrite !lval_set_if_empty.
Qed.

Lemma wf_pre wi c d : lwf d -> lwf (pre wi c d).
Proof. intros H. unfold pre. destruct wi; auto 7 with lwf. Qed.

Lemma no_uu_prefix k p : has_prefix "__" k = false -> has_prefix ("__" ++ p) k = false.
Proof.
  intros H. destruct (has_prefix ("__" ++ p) k) eqn:E; [|reflexivity].
  apply has_prefix_weaken in E. congruence.
Qed.

Lemma visible_not_special k : has_prefix "__" k = false ->
  has_prefix invalid_prefix k = false /\ has_prefix "__param_" k = false /\ has_prefix "__meta_" k = false.
Proof.
  intros H. repeat split.
  - apply (no_uu_prefix k "invalid_label_" H).
  - apply (no_uu_prefix k "param_" H).
  - apply (no_uu_prefix k "meta_" H).
Qed.

Lemma neq_of_prefix (k lit : string) : has_prefix "__" k = false -> has_prefix "__" lit = true -> String.eqb k lit = false.
Proof. intros H1 H2. destruct (String.eqb_spec k lit); [subst; congruence|reflexivity]. Qed.

Lemma prefixed_neq k : String.eqb (invalid_prefix ++ k) k = false.
Proof.
  destruct (String.eqb_spec (invalid_prefix ++ k) k) as [He|]; [|reflexivity]. exfalso.
  apply (f_equal String.length) in He. rewrite sapp_length in He. simpl in He. lia.
Qed.

(* the three ways a label travels to the shard: under its own name; under the prefix (an invalid name, or a configured
   parameter that relabeling changed), to be restored by the labelmap rule; or not at all (a configured parameter that
   still has the job's value, which the shard's Prometheus sets again) *)
Lemma ship_cases ps l k v : shippable ps l -> ndq ps -> In (k, v) l ->
  (ship_name ps k v = Some k /\ pfirst ps k = None) \/ ship_name ps k v = Some (invalid_prefix ++ k) \/
  (ship_name ps k v = None /\ pfirst ps k = Some v).
Proof.
  intros Hs Hps Hin. destruct (has_prefix "__param_" k) eqn:Ep.
  - pose proof (sp_param_valid _ _ Hs k v Hin Ep) as Hv. pose proof (prefix_drop _ _ Ep) as E.
    remember (drop_prefix "__param_" k) as x eqn:Ex. clear Ex. subst k.
    rewrite ship_name_param, pfirst_qval by assumption. destruct (qval x ps) as [|v0 t]; [auto|].
    destruct (String.eqb_spec v v0) as [->|]; auto.
  - rewrite ship_name_plain, pfirst_none by exact Ep. destruct (valid_name k); auto.
Qed.

(* in each of them the value v comes back: s is the shipped name, pf the job's own first value *)
Lemma travel_cases k v (s pf : option string) : v <> "" ->
  (s = Some k /\ pf = None) \/ s = Some (invalid_prefix ++ k) \/ (s = None /\ pf = Some v) ->
  (if String.eqb (match s with Some n => if String.eqb (invalid_prefix ++ k) n then v else "" | None => "" end) ""
   then match pf with Some v0 => v0 | None => match s with Some n => if String.eqb k n then v else "" | None => "" end end
   else match s with Some n => if String.eqb (invalid_prefix ++ k) n then v else "" | None => "" end) = v.
Proof.
  intros Hv [[-> ->]|[->|[-> ->]]].
  - now rewrite prefixed_neq, !String.eqb_refl.
  - now rewrite String.eqb_refl, (eqb_empty_false v Hv).
  - reflexivity.
Qed.

Lemma lval_group name hash sh k :
  lval k (group_labels name hash sh) =
  if String.eqb k "__param__hash" then dec hash
  else if String.eqb k "__param__jobName" then name
  else if String.eqb k "__param__scheme" then (if String.eqb (lval "__scheme__" sh) "" then "http" else lval "__scheme__" sh)
  else if String.eqb k "__scheme__" then "http" else lval k sh.
Proof. unfold group_labels. now rewrite !lval_lb_set. Qed.

Lemma lval_group_other name hash sh k :
  String.eqb k "__param__hash" = false -> String.eqb k "__param__jobName" = false ->
  String.eqb k "__param__scheme" = false -> String.eqb k "__scheme__" = false ->
  lval k (group_labels name hash sh) = lval k sh.
Proof. intros H1 H2 H3 H4. now rewrite lval_group, H1, H2, H3, H4. Qed.

Lemma wf_group name hash sh : lwf sh -> lwf (group_labels name hash sh).
Proof. intros H. unfold group_labels. auto with lwf. Qed.

(* what the coordinator's final label set must look like for the round trip (all of it follows from the
   hypotheses of the main theorem) *)
Record good (ps : list (string * list string)) (L : labels) (addr : string) : Prop := {
  g_ship : shippable ps L;
  g_ne : ne L;
  g_job : lval "job" L <> "";
  g_path : lval "__metrics_path__" L <> "";
  g_scheme : lval "__scheme__" L <> "";
  g_addr : lval "__address__" L = addr;
  g_addr_ne : addr <> "";
  g_instance : lval "instance" L <> "";
  g_nometa : forall k, has_prefix "__meta_" k = true -> lval k L = "";
  g_noivl : lval I_ L = "" /\ lval T_ L = "";
  g_noroute : lval "__param__hash" L = "" /\ lval "__param__jobName" L = "" /\ lval "__param__scheme" L = "";
  g_noempty_name : lval "" L = "";
}.

(* two results are the same target: both absent, or the same visible labels (as a map from names to values), the same
   scheme, host and path, and the same values for every query key *)
Definition lab_equiv (a b : labels) : Prop := forall k, lval k a = lval k b.
Definition url_equiv (u1 u2 : url) : Prop :=
  u_scheme u1 = u_scheme u2 /\ u_host u1 = u_host u2 /\ u_path u1 = u_path u2 /\
  forall x, qval x (u_query u1) = qval x (u_query u2).
Definition res_equiv (r1 r2 : option (labels * url)) : Prop :=
  match r1, r2 with
  | None, None => True
  | Some (l1, u1), Some (l2, u2) => lab_equiv l1 l2 /\ url_equiv u1 u2
  | _, _ => False
  end.

Arguments g_ship {ps L addr}. Arguments g_ne {ps L addr}. Arguments g_job {ps L addr}. Arguments g_path {ps L addr}.
Arguments g_scheme {ps L addr}. Arguments g_addr {ps L addr}. Arguments g_addr_ne {ps L addr}.
Arguments g_instance {ps L addr}. Arguments g_noivl {ps L addr}. Arguments g_noroute {ps L addr}.
Arguments g_noempty_name {ps L addr}.

Lemma res_equiv_label r1 r2 k : res_equiv r1 r2 ->
  option_map (fun r => lval k (fst r)) r1 = option_map (fun r => lval k (fst r)) r2.
Proof. destruct r1 as [[l1 u1]|], r2 as [[l2 u2]|]; cbn; try tauto. intros [Hl _]. now rewrite Hl. Qed.

Lemma res_equiv_trans r1 r2 r3 : res_equiv r1 r2 -> res_equiv r2 r3 -> res_equiv r1 r3.
Proof.
  destruct r1 as [[l1 u1]|], r2 as [[l2 u2]|], r3 as [[l3 u3]|]; cbn [res_equiv]; try tauto.
  intros [Hl (Hs & Hh & Hp & Hq)] [Hl' (Hs' & Hh' & Hp' & Hq')].
  split; [intros k; now rewrite Hl|]. split; [congruence|]. split; [congruence|]. split; [congruence|].
  intros x. now rewrite Hq.
Qed.

(* a target is read off its label set name by name; the two interval labels do not enter *)
Lemma target_agree ps a b : ndq ps -> lwf a -> lwf b ->
  (forall k, k <> I_ -> k <> T_ -> lval k a = lval k b) ->
  res_equiv (Some (visible a, target_url ps a)) (Some (visible b, target_url ps b)).
Proof.
  intros Hps [Na Ea] [Nb Eb] H. split; [|split; [|split; [|split]]].
  - intros k. rewrite !lval_visible by assumption. destruct (has_prefix "__" k) eqn:Hv; [reflexivity|].
    apply H; intros ->; discriminate.
  - apply H; discriminate.
  - apply H; discriminate.
  - apply H; discriminate.
  - intros x. rewrite !qval_target_url, !lget_of_lval by assumption. now rewrite H by discriminate.
Qed.

Lemma fin_labels_agree a b addr : (forall k, k <> I_ -> k <> T_ -> lval k a = lval k b) ->
  forall k, k <> I_ -> k <> T_ -> lval k (fin_labels a addr) = lval k (fin_labels b addr).
Proof. intros H k H1 H2. now rewrite !lval_fin_labels, (H "instance"), (H k) by (assumption || discriminate). Qed.

Section Core.
Variables (np aok : string -> bool) (iok : string -> string -> bool).
Variable c : jobcfg.
Variable hash : N.
Variable L : labels.
Variable addr : string.
Notation ps := (jc_params c).
Hypothesis HG : good ps L addr.
Hypothesis Hps : ndq ps.
Hypothesis Hrps : qval "_hash" ps = [] /\ qval "_jobName" ps = [] /\ qval "_scheme" ps = [].
Hypothesis Hnp : np addr = false.
Hypothesis Haok : aok addr = true.

(* the label set of one kept target on its way through the sharded route: shipped by the coordinator, as the static
   group the injector writes, before the shard's relabeling, after its labelmap rule, and final *)
Definition S_ := shipped ps L.
Definition G_ := group_labels (jc_name c) hash S_.
Definition P_ := pre true (shard_cfg c) G_.
Definition l1_ := fold_left lm_step P_ P_.
Definition F_ := fin_labels l1_ addr.

Lemma wf_L : lwf L.
Proof. split; [apply (sp_nd _ _ (g_ship HG)) | apply (g_ne HG)]. Qed.
Lemma wf_P : lwf P_.
Proof. apply wf_pre, wf_group, wf_shipped; [apply (g_ship HG) | apply (g_ne HG)]. Qed.
Lemma wf_F : lwf F_.
Proof. apply wf_fin_labels, wf_lm_fold, wf_P. Qed.

Lemma S_own k : has_prefix invalid_prefix k = false ->
  lval k S_ = match lget k L with
              | Some v => match ship_name ps k v with Some n => if String.eqb k n then v else "" | None => "" end
              | None => "" end.
Proof. intros H. unfold S_. rewrite lval_shipped by apply HG. unfold src. now rewrite H. Qed.
Lemma S_prefixed k :
  lval (invalid_prefix ++ k) S_ =
  match lget k L with
  | Some v => match ship_name ps k v with Some n => if String.eqb (invalid_prefix ++ k) n then v else "" | None => "" end
  | None => "" end.
Proof. unfold S_. rewrite lval_shipped by apply HG. now rewrite src_prefixed. Qed.

Lemma S_plain k : has_prefix invalid_prefix k = false -> has_prefix "__param_" k = false -> valid_name k = true ->
  lval k S_ = lval k L.
Proof.
  intros H1 H2 H3. rewrite S_own by exact H1. unfold lval. destruct (lget k L); [|reflexivity].
  now rewrite ship_name_plain, H3, String.eqb_refl by exact H2.
Qed.

Lemma G_scheme_param : lval "__param__scheme" G_ = lval "__scheme__" L.
Proof.
  unfold G_. rewrite lval_group. cbn [String.eqb Ascii.eqb Bool.eqb andb]. rewrite (S_plain "__scheme__") by reflexivity.
  now rewrite (eqb_empty_false _ (g_scheme HG)).
Qed.

Lemma G_plain k :
  String.eqb k "__param__hash" = false -> String.eqb k "__param__jobName" = false ->
  String.eqb k "__param__scheme" = false -> String.eqb k "__scheme__" = false ->
  has_prefix invalid_prefix k = false -> has_prefix "__param_" k = false -> valid_name k = true ->
  lval k G_ = lval k L.
Proof. intros. unfold G_. rewrite lval_group_other by assumption. now apply S_plain. Qed.

Lemma G_absent k :
  String.eqb k "__param__hash" = false -> String.eqb k "__param__jobName" = false ->
  String.eqb k "__param__scheme" = false -> String.eqb k "__scheme__" = false ->
  has_prefix invalid_prefix k = false -> lval k L = "" -> lval k G_ = "".
Proof.
  intros H1 H2 H3 H4 H5 H6. unfold G_. rewrite lval_group_other, S_own by assumption.
  now rewrite (lget_of_lval k L (g_ne HG)), H6.
Qed.

Lemma P_val k :
  lval k P_ = match pfirst ps k with
              | Some v => v
              | None => if String.eqb k T_ then jc_timeout c else if String.eqb k I_ then jc_interval c else lval k G_
              end.
Proof.
  unfold P_. rewrite lval_pre. cbn [shard_cfg jc_params jc_scheme jc_path jc_timeout jc_interval jc_name].
  destruct (pfirst ps k); [reflexivity|].
  assert (Hs : lval "__scheme__" G_ = "http") by (unfold G_; rewrite lval_group; reflexivity).
  rewrite Hs, (G_plain "__metrics_path__"), (G_plain "job"), (G_absent T_), (G_absent I_) by (reflexivity || apply (g_noivl HG)).
  now rewrite (eqb_empty_false _ (g_path HG)), (eqb_empty_false _ (g_job HG)).
Qed.

Lemma P_prefixed k : lval (invalid_prefix ++ k) P_ = lval (invalid_prefix ++ k) S_.
Proof. rewrite P_val, pfirst_none by reflexivity. unfold G_. apply lval_group_other; reflexivity. Qed.

(* the labelmap rule restores k from its prefixed form when that was shipped *)
Lemma l1_val k : k <> "" ->
  lval k l1_ = if String.eqb (lval (invalid_prefix ++ k) S_) "" then lval k P_ else lval (invalid_prefix ++ k) S_.
Proof.
  intros Hk. unfold l1_. rewrite lval_lm_fold, lget_of_lval, P_prefixed by (exact Hk || apply wf_P).
  now destruct (String.eqb _ "").
Qed.

(* the round trip of a name through shipping, the group, the shard's defaults and the labelmap rule: the shard's Prometheus
   sees the coordinator's value, or the job's own first value of a parameter the coordinator's set does not carry *)
Lemma l1_roundtrip k : k <> "" -> has_prefix invalid_prefix k = false ->
  String.eqb k "__param__hash" = false -> String.eqb k "__param__jobName" = false ->
  String.eqb k "__param__scheme" = false -> String.eqb k "__scheme__" = false ->
  String.eqb k T_ = false -> String.eqb k I_ = false ->
  lval k l1_ = if String.eqb (lval k L) "" then match pfirst ps k with Some v => v | None => "" end else lval k L.
Proof.
  intros Hk Hp H1 H2 H3 H4 H5 H6. rewrite l1_val, P_val, H5, H6 by assumption. unfold G_.
  rewrite lval_group_other, S_prefixed, S_own by assumption.
  unfold lval. destruct (lget k L) as [v|] eqn:El; [|reflexivity].
  apply lget_some_in in El. rewrite (eqb_empty_false v (g_ne HG k v El)).
  apply travel_cases; [apply (g_ne HG k v El) | apply (ship_cases ps L); [apply HG | exact Hps | exact El]].
Qed.

Lemma l1_plain k : k <> "" -> has_prefix invalid_prefix k = false ->
  String.eqb k "__param__hash" = false -> String.eqb k "__param__jobName" = false ->
  String.eqb k "__param__scheme" = false -> String.eqb k "__scheme__" = false ->
  String.eqb k T_ = false -> String.eqb k I_ = false -> has_prefix "__param_" k = false ->
  lval k l1_ = lval k L.
Proof. intros. rewrite l1_roundtrip, pfirst_none by assumption. apply if_empty_id. Qed.

(* a name the coordinator's set does not carry is left to the shard's defaults *)
Lemma l1_own k : k <> "" -> lval k L = "" -> lval k l1_ = lval k P_.
Proof.
  intros Hk HL. rewrite l1_val, S_prefixed by exact Hk. unfold lval in HL. destruct (lget k L) as [v|] eqn:El; [|reflexivity].
  apply lget_some_in in El. now destruct (g_ne HG k v El).
Qed.
Lemma l1_interval : lval I_ l1_ = jc_interval c /\ lval T_ l1_ = jc_timeout c.
Proof. split; rewrite l1_own, P_val, pfirst_none by (reflexivity || discriminate || apply (g_noivl HG)); reflexivity. Qed.
Lemma l1_scheme_param : lval "__param__scheme" l1_ = lval "__scheme__" L.
Proof.
  rewrite l1_val, S_prefixed by discriminate. rewrite (lget_of_lval _ L (g_ne HG)), (proj2 (proj2 (g_noroute HG))).
  cbn [String.eqb]. rewrite P_val. change "__param__scheme" with ("__param_" ++ "_scheme") at 1.
  rewrite pfirst_qval, (proj2 (proj2 Hrps)) by exact Hps. apply G_scheme_param.
Qed.

Lemma l1_instance : String.eqb (lval "instance" l1_) "" = false.
Proof. rewrite l1_plain by (reflexivity || discriminate). apply eqb_empty_false, (g_instance HG). Qed.

Lemma F_visible k : has_prefix "__" k = false -> lval k F_ = lval k L.
Proof.
  intros Hv. destruct (visible_not_special k Hv) as (Hnp_ & Hnq & Hnm).
  unfold F_. rewrite lval_fin_labels, Hnm, (neq_of_prefix k "__address__" Hv eq_refl), l1_instance, andb_false_r.
  destruct (String.eqb_spec k "") as [->|Hk].
  - (* the empty name is not a valid name: not shipped *)
    unfold l1_. rewrite lval_lm_fold_empty, P_val, pfirst_none by reflexivity. cbn [String.eqb].
    unfold G_. rewrite lval_group_other, S_own by reflexivity. rewrite (g_noempty_name HG).
    unfold lval in *. destruct (lget "" L); [|reflexivity]. now rewrite ship_name_plain.
  - apply l1_plain; try assumption; now apply neq_of_prefix.
Qed.

Lemma param_key_facts x :
  String.eqb ("__param_" ++ x) "instance" = false /\ has_prefix "__meta_" ("__param_" ++ x) = false /\
  String.eqb ("__param_" ++ x) "__address__" = false /\ String.eqb ("__param_" ++ x) "__scheme__" = false /\
  String.eqb ("__param_" ++ x) T_ = false /\ String.eqb ("__param_" ++ x) I_ = false /\
  has_prefix invalid_prefix ("__param_" ++ x) = false /\ "__param_" ++ x <> "".
Proof. repeat split; try reflexivity. discriminate. Qed.

Lemma param_key_routing x : routing x = false ->
  String.eqb ("__param_" ++ x) "__param__hash" = false /\ String.eqb ("__param_" ++ x) "__param__jobName" = false /\
  String.eqb ("__param_" ++ x) "__param__scheme" = false.
Proof.
  unfold routing. intros H. apply orb_false_iff in H. destruct H as [H H3]. apply orb_false_iff in H. destruct H as [H1 H2].
  repeat split.
  - change "__param__hash" with ("__param_" ++ "_hash"). now rewrite eqb_sapp_l.
  - change "__param__jobName" with ("__param_" ++ "_jobName"). now rewrite eqb_sapp_l.
  - change "__param__scheme" with ("__param_" ++ "_scheme"). now rewrite eqb_sapp_l.
Qed.

(* a query parameter's label on the shard: the coordinator's value when it has one, else the job's first value *)
Lemma F_param x : routing x = false ->
  lval ("__param_" ++ x) F_ =
  if String.eqb (lval ("__param_" ++ x) L) "" then match qval x ps with v0 :: _ => v0 | [] => "" end
  else lval ("__param_" ++ x) L.
Proof.
  intros Hr. destruct (param_key_facts x) as (Hi & Hm & Ha & Hs & Ht & Hii & Hp & Hk).
  destruct (param_key_routing x Hr) as (R1 & R2 & R3).
  unfold F_. rewrite lval_fin_labels_other, l1_roundtrip, pfirst_qval by assumption.
  now destruct (qval x ps).
Qed.

(* the shard's Prometheus accepts the target exactly when the job's interval settings are acceptable *)
Lemma sharded_from_eq :
  sharded_from np aok iok c hash L =
  if iok (jc_interval c) (jc_timeout c) then Some (visible F_, translate_url (target_url ps F_)) else None.
Proof.
  unfold sharded_from. fold S_. fold G_. rewrite populate_closed, labelmap_unfold. fold P_. fold l1_.
  assert (Ha : lval "__address__" l1_ = addr) by (rewrite l1_plain by (reflexivity || discriminate); apply (g_addr HG)).
  unfold final_addr, port_suffix. rewrite Ha, (eqb_empty_false _ (g_addr_ne HG)), Hnp, sapp_nil_r, Haok.
  destruct l1_interval as [-> ->]. fold F_. cbn [andb]. now destruct (iok (jc_interval c) (jc_timeout c)).
Qed.

(* the request the proxy makes for the shard's target is the target of the coordinator's label set *)
Lemma core_equiv :
  res_equiv (Some (visible F_, translate_url (target_url ps F_))) (Some (visible L, target_url ps L)).
Proof.
  destruct wf_F as [NF EF]. destruct wf_L as [NL EL]. split; [|split; [|split; [|split]]].
  - intros k. rewrite !lval_visible by assumption. destruct (has_prefix "__" k) eqn:E; [reflexivity|now apply F_visible].
  - cbn [translate_url u_scheme]. rewrite qget_qval, qval_target_url, lget_of_lval by assumption.
    change ("__param_" ++ "_scheme") with "__param__scheme".
    unfold F_. rewrite lval_fin_labels_other, l1_scheme_param by reflexivity. now rewrite (eqb_empty_false _ (g_scheme HG)).
  - cbn [translate_url u_host target_url]. unfold F_. rewrite lval_fin_labels. exact (eq_sym (g_addr HG)).
  - cbn [translate_url u_path target_url]. unfold F_. rewrite lval_fin_labels_other by reflexivity. apply l1_plain; reflexivity || discriminate.
  - intros x. rewrite qval_translate, (qval_target_url x ps L) by assumption.
    destruct (routing x) eqn:Er.
    + (* neither the job nor the coordinator's labels have a routing parameter *)
      destruct (g_noroute HG) as (N1 & N2 & N3). destruct Hrps as (Q1 & Q2 & Q3). rewrite lget_of_lval by exact EL.
      unfold routing in Er. apply orb_true_iff in Er. destruct Er as [Er|Er]; [apply orb_true_iff in Er; destruct Er as [Er|Er]|];
        apply String.eqb_eq in Er; subst x.
      * change ("__param_" ++ "_hash") with "__param__hash". now rewrite N1, Q1.
      * change ("__param_" ++ "_jobName") with "__param__jobName". now rewrite N2, Q2.
      * change ("__param_" ++ "_scheme") with "__param__scheme". now rewrite N3, Q3.
    + rewrite qval_target_url, !lget_of_lval, (F_param x Er) by assumption.
      destruct (String.eqb (lval ("__param_" ++ x) L) "") eqn:E; [|now rewrite E].
      destruct (qval x ps) as [|v0 t]; [reflexivity|]. now destruct (String.eqb v0 "").
Qed.
End Core.

(* what the coordinator's relabelled label set must look like for the round trip through the sidecar *)
Record relabelled_ok (l : labels) : Prop := {
  r_nd : nd l;
  r_ne : ne l;
  r_job : lval "job" l <> "";
  r_path : lval "__metrics_path__" l <> "";
  r_scheme : lval "__scheme__" l <> "";
  r_noprefix : forall k v, In (k, v) l -> has_prefix invalid_prefix k = false;
  r_param_valid : forall k v, In (k, v) l -> has_prefix "__param_" k = true -> valid_name k = true;
  r_noroute : lval "__param__hash" l = "" /\ lval "__param__jobName" l = "" /\ lval "__param__scheme" l = "";
  r_noempty_name : lval "" l = "";
}.

Lemma in_lb_set k v m k' v' : In (k', v') (lb_set k v m) -> k' = k \/ In (k', v') m.
Proof.
  unfold lb_set, ldel. destruct (String.eqb v "").
  - intros H. apply filter_In in H. tauto.
  - intros [H|H]; [left; congruence|]. apply filter_In in H. tauto.
Qed.

Lemma in_fin_labels l addr k v : In (k, v) (fin_labels l addr) -> k = "instance" \/ k = "__address__" \/ In (k, v) l.
Proof.
  unfold fin_labels, del_meta. destruct (String.eqb (lval "instance" l) "").
  - intros H. apply in_lb_set in H. destruct H as [H|H]; [now left|]. apply filter_In in H. destruct H as [H _].
    apply in_lb_set in H. tauto.
  - intros H. apply filter_In in H. destruct H as [H _]. apply in_lb_set in H. tauto.
Qed.

Lemma good_fin ps Lc addr : relabelled_ok Lc -> lval I_ Lc = "" -> lval T_ Lc = "" -> addr <> "" ->
  good ps (fin_labels Lc addr) addr.
Proof.
  intros HL HI HT Ha. pose proof (in_fin_labels Lc addr) as Hin.
  constructor.
  - constructor.
    + apply wf_fin_labels. split; [apply (r_nd _ HL) | apply (r_ne _ HL)].
    + intros k v H. destruct (Hin k v H) as [->|[->|H']]; [reflexivity|reflexivity|]. now apply (r_noprefix _ HL k v).
    + intros k v H Hp. destruct (Hin k v H) as [->|[->|H']]; [discriminate|discriminate|]. now apply (r_param_valid _ HL k v).
  - apply wf_fin_labels. split; [apply (r_nd _ HL) | apply (r_ne _ HL)].
  - rewrite lval_fin_labels_other by reflexivity. apply (r_job _ HL).
  - rewrite lval_fin_labels_other by reflexivity. apply (r_path _ HL).
  - rewrite lval_fin_labels_other by reflexivity. apply (r_scheme _ HL).
  - rewrite lval_fin_labels. reflexivity.
  - exact Ha.
  - rewrite lval_fin_labels. cbn [String.eqb Ascii.eqb Bool.eqb andb].
    destruct (String.eqb_spec (lval "instance" Lc) "") as [E|E]; [exact Ha|exact E].
  - intros k Hm. rewrite lval_fin_labels, Hm.
    destruct (String.eqb_spec k "instance") as [->|]; [discriminate|reflexivity].
  - split; rewrite lval_fin_labels_other by reflexivity; assumption.
  - destruct (r_noroute _ HL) as (N1 & N2 & N3). repeat split; rewrite lval_fin_labels_other by reflexivity; assumption.
  - rewrite lval_fin_labels_other by reflexivity. apply (r_noempty_name _ HL).
Qed.

(* the job: unique parameter keys, none of them a routing name *)
Definition cfg_ok (c : jobcfg) : Prop :=
  ndq (jc_params c) /\
  (qval "_hash" (jc_params c) = [] /\ qval "_jobName" (jc_params c) = [] /\ qval "_scheme" (jc_params c) = []).

(* the results Lp, Lc of the two relabel runs - with the interval labels in the input (one Prometheus) and without (the
   coordinator): the relabel rules neither read nor write the two interval labels *)
Record runs_ok (c : jobcfg) (Lp Lc : labels) : Prop := {
  ro_rel : forall k, lval k Lp = if String.eqb k I_ then jc_interval c else if String.eqb k T_ then jc_timeout c else lval k Lc;
  ro_I : lval I_ Lc = "";
  ro_T : lval T_ Lc = "";
  ro_nd : nd Lp;
  ro_ne : ne Lp;
  ro_ok : relabelled_ok Lc;
}.
(* both runs drop the target, or both keep it with results related as above *)
Definition runs_agree (R : labels -> option labels) (c : jobcfg) (d : labels) : Prop :=
  match R (pre true c d), R (pre false c d) with
  | Some Lp, Some Lc => runs_ok c Lp Lc
  | None, None => True
  | _, _ => False
  end.

Lemma runs_agree_intro R c d Lp Lc :
  R (pre true c d) = Some Lp -> R (pre false c d) = Some Lc ->
  (forall k, lval k Lp = if String.eqb k I_ then jc_interval c else if String.eqb k T_ then jc_timeout c else lval k Lc) ->
  lval I_ Lc = "" -> lval T_ Lc = "" -> nd Lp -> ne Lp -> relabelled_ok Lc -> runs_agree R c d.
Proof. intros Hp Hc. unfold runs_agree. rewrite Hp, Hc. now constructor. Qed.

Section Main.
Variable R : labels -> option labels.
Variables (np aok : string -> bool) (iok : string -> string -> bool).
Variable c : jobcfg.
Variable hash : N.
Variable d : labels.
Notation ps := (jc_params c).
Hypothesis Hcfg : cfg_ok c.
Hypothesis Hadd : port_added np.
Variables Lp Lc : labels.
Hypothesis HRp : R (pre true c d) = Some Lp.
Hypothesis HRc : R (pre false c d) = Some Lc.
Hypothesis Hruns : runs_ok c Lp Lc.

Lemma runs_ok_off k : k <> I_ -> k <> T_ -> lval k Lp = lval k Lc.
Proof. intros H1 H2. rewrite (ro_rel _ _ _ Hruns). apply String.eqb_neq in H1, H2. now rewrite H1, H2. Qed.

(* both routes in closed form, over the address the coordinator's labels end up with *)
Lemma plain_eq :
  plain R np aok iok c d =
  match final_addr np aok Lc with
  | Some addr => if iok (jc_interval c) (jc_timeout c)
                 then Some (visible (fin_labels Lp addr), target_url ps (fin_labels Lp addr)) else None
  | None => None
  end.
Proof.
  unfold plain. rewrite populate_closed, HRp.
  rewrite (final_addr_ext np aok Lp Lc) by (apply runs_ok_off; discriminate).
  destruct (final_addr np aok Lc) as [addr|]; [|reflexivity].
  rewrite (ro_rel _ _ _ Hruns I_), (ro_rel _ _ _ Hruns T_). cbn [String.eqb Ascii.eqb Bool.eqb andb]. cbn.
  now destruct (iok (jc_interval c) (jc_timeout c)).
Qed.

Lemma good_final addr : final_addr np aok Lc = Some addr -> good ps (fin_labels Lc addr) addr.
Proof.
  intros Ea. destruct (final_addr_spec np aok Lc addr Hadd Ea) as (Hne & _).
  apply good_fin; [apply (ro_ok _ _ _ Hruns) | apply (ro_I _ _ _ Hruns) | apply (ro_T _ _ _ Hruns) | exact Hne].
Qed.

Lemma sharded_eq :
  sharded R np aok iok c hash d =
  match final_addr np aok Lc with
  | Some addr => if iok (jc_interval c) (jc_timeout c)
                 then Some (visible (F_ c hash (fin_labels Lc addr) addr), translate_url (target_url ps (F_ c hash (fin_labels Lc addr) addr)))
                 else None
  | None => None
  end.
Proof.
  unfold sharded, coordinator_labels. rewrite populate_closed, HRc.
  destruct (final_addr np aok Lc) as [addr|] eqn:Ea; [|reflexivity]. cbn [andb].
  destruct (final_addr_spec np aok Lc addr Hadd Ea) as (_ & Hnp & Hok).
  apply sharded_from_eq; [now apply good_final | apply Hcfg | exact Hnp | exact Hok].
Qed.

End Main.

(* no target on either route, or the same final address on both *)
Lemma routes_cases R np aok iok c hash d : cfg_ok c -> port_added np -> runs_agree R c d ->
  (sharded R np aok iok c hash d = None /\ plain R np aok iok c d = None) \/
  exists Lp Lc addr, runs_ok c Lp Lc /\ good (jc_params c) (fin_labels Lc addr) addr /\
    sharded R np aok iok c hash d =
      Some (visible (F_ c hash (fin_labels Lc addr) addr), translate_url (target_url (jc_params c) (F_ c hash (fin_labels Lc addr) addr))) /\
    plain R np aok iok c d = Some (visible (fin_labels Lp addr), target_url (jc_params c) (fin_labels Lp addr)).
Proof.
  intros Hcfg Hadd Hr. unfold runs_agree in Hr.
  destruct (R (pre true c d)) as [Lp|] eqn:Ep; destruct (R (pre false c d)) as [Lc|] eqn:Ec; try contradiction.
  - rewrite (sharded_eq R np aok iok c hash d Hcfg Hadd Lp Lc Ec Hr), (plain_eq R np aok iok c d Lp Lc Ep Hr).
    destruct (final_addr np aok Lc) as [addr|] eqn:Ea; [|now left]. destruct (iok _ _); [|now left].
    right. exists Lp, Lc, addr. split; [exact Hr|]. split; [exact (good_final np aok c Hadd Lp Lc Hr addr Ea)|]. now split.
  - left. unfold sharded, coordinator_labels, plain. now rewrite !populate_closed, Ep, Ec.
Qed.

Theorem sharded_equiv_plain R np aok iok c hash d :
  cfg_ok c -> port_added np -> runs_agree R c d ->
  res_equiv (sharded R np aok iok c hash d) (plain R np aok iok c d).
Proof.
  intros Hcfg Hadd Hr.
  destruct (routes_cases R np aok iok c hash d Hcfg Hadd Hr) as [[-> ->]|(Lp & Lc & addr & Hruns & HG & -> & ->)]; [exact I|].
  destruct Hcfg as [Hps Hrps]. eapply res_equiv_trans; [apply (core_equiv c hash _ addr HG Hps Hrps)|].
  apply target_agree; [exact Hps | apply (wf_L c _ addr HG) | |].
  - apply wf_fin_labels. split; [apply (ro_nd _ _ _ Hruns) | apply (ro_ne _ _ _ Hruns)].
  - intros k H1 H2. symmetry. apply fin_labels_agree; [exact (runs_ok_off c Lp Lc Hruns) | exact H1 | exact H2].
Qed.

Fixpoint nodupb (l : list string) : bool :=
  match l with [] => true | x :: r => negb (existsb (String.eqb x) r) && nodupb r end.
Lemma nodupb_sound l : nodupb l = true -> NoDup l.
Proof.
  induction l as [|x r IH]; intros H; [constructor|]. cbn [nodupb] in H. apply andb_true_iff in H. destruct H as [Hx Hr].
  constructor; [|auto]. intros Hin. apply negb_true_iff in Hx.
  assert (existsb (String.eqb x) r = true) by (apply existsb_exists; exists x; split; [exact Hin|apply String.eqb_refl]).
  congruence.
Qed.
Definition ndb (m : labels) : bool := nodupb (map fst m).
Definition neb (m : labels) : bool := forallb (fun kv => negb (String.eqb (snd kv) "")) m.
Lemma neb_sound m : neb m = true -> ne m.
Proof.
  intros H k v Hin E. unfold neb in H. rewrite forallb_forall in H. specialize (H _ Hin). cbn in H. subst v. discriminate.
Qed.

Definition relabelled_okb (l : labels) : bool :=
  ndb l && neb l && negb (String.eqb (lval "job" l) "") && negb (String.eqb (lval "__metrics_path__" l) "") &&
  negb (String.eqb (lval "__scheme__" l) "") &&
  forallb (fun kv => negb (has_prefix invalid_prefix (fst kv))) l &&
  forallb (fun kv => implb (has_prefix "__param_" (fst kv)) (valid_name (fst kv))) l &&
  String.eqb (lval "__param__hash" l) "" && String.eqb (lval "__param__jobName" l) "" && String.eqb (lval "__param__scheme" l) "" &&
  String.eqb (lval "" l) "".

Ltac split_andb H :=
  repeat match type of H with
         | (_ && _) = true => let H2 := fresh "Hb" in apply andb_true_iff in H; destruct H as [H H2]
         end.

Lemma relabelled_okb_sound l : relabelled_okb l = true -> relabelled_ok l.
Proof.
  unfold relabelled_okb. intros H. split_andb H.
  constructor.
  - now apply nodupb_sound.
  - now apply neb_sound.
  - intros E. rewrite E in *. discriminate.
  - intros E. rewrite E in *. discriminate.
  - intros E. rewrite E in *. discriminate.
  - intros k v Hin. match goal with Hf : forallb (fun kv => negb (has_prefix invalid_prefix (fst kv))) l = true |- _ =>
      rewrite forallb_forall in Hf; specialize (Hf _ Hin); cbn in Hf; now apply negb_true_iff in Hf end.
  - intros k v Hin Hp. match goal with Hf : forallb (fun kv => implb _ _) l = true |- _ =>
      rewrite forallb_forall in Hf; specialize (Hf _ Hin); cbn [fst] in Hf; rewrite Hp in Hf; exact Hf end.
  - repeat split; now apply String.eqb_eq.
  - now apply String.eqb_eq.
Qed.

Definition relb (c : jobcfg) (Lp Lc : labels) : bool :=
  forallb (fun k => String.eqb (lval k Lp)
                      (if String.eqb k I_ then jc_interval c else if String.eqb k T_ then jc_timeout c else lval k Lc))
          (I_ :: T_ :: map fst Lp ++ map fst Lc).

Lemma relb_sound c Lp Lc : relb c Lp Lc = true ->
  forall k, lval k Lp = if String.eqb k I_ then jc_interval c else if String.eqb k T_ then jc_timeout c else lval k Lc.
Proof.
  unfold relb. intros H k. rewrite forallb_forall in H.
  destruct (in_dec string_dec k (I_ :: T_ :: map fst Lp ++ map fst Lc)) as [Hin|Hout].
  - now apply String.eqb_eq, H.
  - assert (k <> I_ /\ k <> T_ /\ ~ In k (map fst Lp) /\ ~ In k (map fst Lc)) as (N1 & N2 & N3 & N4).
    { repeat split; intros E; apply Hout; [left; now subst|right; left; now subst|right; right; apply in_or_app; now left|right; right; apply in_or_app; now right]. }
    apply String.eqb_neq in N1, N2. rewrite N1, N2. now rewrite !lval_notin.
Qed.

Definition cfg_okb (c : jobcfg) : bool :=
  nodupb (map fst (jc_params c)) &&
  match qval "_hash" (jc_params c), qval "_jobName" (jc_params c), qval "_scheme" (jc_params c) with [], [], [] => true | _, _, _ => false end.

Definition hyp_okb (R : labels -> option labels) (c : jobcfg) (d : labels) : bool :=
  match R (pre true c d), R (pre false c d) with
  | Some Lp, Some Lc =>
    relb c Lp Lc && String.eqb (lval I_ Lc) "" && String.eqb (lval T_ Lc) "" && ndb Lp && neb Lp && relabelled_okb Lc
  | None, None => true
  | _, _ => false
  end.

Lemma cfg_okb_sound c : cfg_okb c = true -> cfg_ok c.
Proof.
  unfold cfg_okb. intros H. apply andb_true_iff in H. destruct H as [Hps Hq]. split; [now apply nodupb_sound|].
  destruct (qval "_hash" _); [|discriminate]. destruct (qval "_jobName" _); [|discriminate]. destruct (qval "_scheme" _); [|discriminate]. auto.
Qed.

Lemma hyp_okb_sound R c d : hyp_okb R c d = true -> runs_agree R c d.
Proof.
  unfold hyp_okb, runs_agree. destruct (R (pre true c d)) as [Lp|]; destruct (R (pre false c d)) as [Lc|]; try discriminate; [|easy].
  intros H. split_andb H. constructor.
  - now apply relb_sound.
  - now apply String.eqb_eq.
  - now apply String.eqb_eq.
  - now apply nodupb_sound.
  - now apply neb_sound.
  - now apply relabelled_okb_sound.
Qed.

(* the port test used in the correspondence run meets the hypothesis on addPort *)
Lemma all_chars_app f a b : all_chars f (a ++ b) = all_chars f a && all_chars f b.
Proof. induction a as [|ch a IH]; [reflexivity|]. cbn [append all_chars]. now rewrite IH, andb_assoc. Qed.
Lemma last_char_app a b : b <> EmptyString -> last_char (a ++ b) = last_char b.
Proof.
  intros Hb. induction a as [|ch a IH]; [reflexivity|]. cbn [append last_char]. rewrite IH.
  destruct b as [|c0 b']; [congruence|]. cbn [last_char]. now destruct (last_char b').
Qed.
Lemma x_needs_port_add a : x_needs_port a = true -> x_needs_port (a ++ ":80") = false /\ x_needs_port (a ++ ":443") = false.
Proof.
  intros _. unfold x_needs_port, contains_char, bracketed. rewrite !all_chars_app, !last_char_app by discriminate.
  cbn [last_char]. split; apply orb_false_iff; (split; [|apply andb_false_iff; right; reflexivity]);
    apply negb_false_iff; apply negb_true_iff; apply andb_false_iff; right; reflexivity.
Qed.

(* how often the theorem applies to the inputs of the correspondence run (statistics, printed into the evidence) *)
Definition thm_hyp (c : tr_case) (d : labels) : bool :=
  cfg_okb (tc_cfg c) && hyp_okb (relabel_rules (tc_rules c)) (tc_cfg c) d.
Definition st_entries (c : tr_case) : nat := if tc_modelled c then length (tc_discovered c) else 0.
Definition st_thm_applies (c : tr_case) : nat := if tc_modelled c then length (filter (thm_hyp c) (tc_discovered c)) else 0.
Definition st_thm_applies_active (c : tr_case) : nat :=
  if tc_modelled c
  then length (filter (fun d => thm_hyp c d &&
                 match plain (relabel_rules (tc_rules c)) x_needs_port x_addr_ok x_interval_ok (tc_cfg c) d with Some _ => true | None => false end)
               (tc_discovered c))
  else 0.
