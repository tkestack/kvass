(* Proofs/CoordLive.v — C03, assignment: what it places is in the plan afterwards (a First event has its target on the
   destination shard from then on), and every entry of the plan after assignment was there before or is the global
   status of a target that nobody held. No hypotheses on the plan, the status function or the schedule.
   Then: sizes are counts (if everything reported and explored is non-negative, so is everything planned). *)
From KV Require Import Base.Util Base.AMap Base.Sched Model.Coordinator Model.CoordCheck Proofs.CoordBasics
  Proofs.CoordEvents Proofs.CoordC01 Proofs.CoordStable Proofs.WorldProofs.
Local Open Scope list_scope.
Local Open Scope Z_scope.

Section Assign.
Variables (o : opts) (scraped : N -> bool) (g : N -> cstat).

Definition has (q : plan) (k : nat) (h : N) : Prop := afind h (scr_of (nth_si q k)) <> None.
Lemma has_iff q k h : has q k h <-> In h (keys_at q k).
Proof.
  unfold has. rewrite keys_at_iff. destruct (afind h _) as [c|].
  - split; [eauto | discriminate].
  - split; [congruence | intros [c E]; discriminate].
Qed.

Lemma assign_step_entry st x k h c :
  afind h (scr_of (nth_si (as_plan (assign_step o scraped g st x)) k)) = Some c ->
  afind h (scr_of (nth_si (as_plan st) k)) = Some c \/ (h = x /\ scraped x = false /\ c = g x).
Proof.
  destruct (assign_step_cases o scraped g st x) as [[-> _]|(j & Hs & Hj & -> & _)]; [now left|].
  rewrite (afind_place _ _ _ _ _ _ Hj). destruct (Nat.eqb j k && N.eqb h x) eqn:E; [|now left].
  apply andb_true_iff in E. destruct E as [_ E]. apply N.eqb_eq in E. intros [= <-]. now right.
Qed.

Lemma assign_step_has st x k h : has (as_plan st) k h -> has (as_plan (assign_step o scraped g st x)) k h.
Proof.
  unfold has. destruct (assign_step_cases o scraped g st x) as [[-> _]|(j & _ & Hj & -> & _)]; [auto|].
  rewrite (afind_place _ _ _ _ _ _ Hj). now destruct (_ && _).
Qed.

Definition placed_inv (st : assign_state) : Prop :=
  forall h, first_event_for h (as_events st) -> exists j, (j < length (as_plan st))%nat /\ has (as_plan st) j h.

Lemma assign_step_placed st x : placed_inv st -> placed_inv (assign_step o scraped g st x).
Proof.
  intros I h Hev.
  assert (Hold : first_event_for h (as_events st) ->
                 exists j, (j < length (as_plan (assign_step o scraped g st x)))%nat /\
                           has (as_plan (assign_step o scraped g st x)) j h).
  { intros H. destruct (I h H) as [j [Hj Hh]]. exists j.
    split; [|now apply assign_step_has].
    destruct (assign_step_cases o scraped g st x) as [[-> _]|(j' & _ & _ & -> & _)]; [|unfold place; rewrite upd_length]; exact Hj. }
  destruct (assign_step_cases o scraped g st x) as [[_ E]|(j & _ & Hj & Ep & Ee & _)]; [rewrite E in Hev; auto|].
  rewrite Ee in Hev. destruct Hev as [e [Hin [Hh Hk]]]. apply in_app_or in Hin. destruct Hin as [Hin|[<-|[]]].
  - apply Hold. exists e. auto.
  - cbn [mk_event ev_hash] in Hh. subst h. exists j. rewrite Ep. unfold place at 1. rewrite upd_length. split; [exact Hj|].
    unfold has. now rewrite (afind_place _ _ _ _ _ _ Hj), !Nat.eqb_refl, N.eqb_refl.
Qed.

Lemma fold_assign_entry l : forall st k h c,
  afind h (scr_of (nth_si (as_plan (fold_left (assign_step o scraped g) l st)) k)) = Some c ->
  afind h (scr_of (nth_si (as_plan st) k)) = Some c \/ (In h l /\ scraped h = false /\ c = g h).
Proof.
  induction l as [|x r IH]; intros st k h c H; cbn [fold_left] in H; [now left|].
  destruct (IH _ k h c H) as [H1|(H1 & H2)]; [|right; split; [now right|exact H2]].
  destruct (assign_step_entry st x k h c H1) as [H2|(-> & H2)]; [now left|right]. split; [now left|exact H2].
Qed.
End Assign.

Theorem assign_event_placed o active g p s h :
  first_event_for h (snd (fst (assign o active g p s))) ->
  exists j, (j < length (fst (fst (fst (assign o active g p s)))))%nat /\ has (fst (fst (fst (assign o active g p s)))) j h.
Proof.
  unfold assign. destruct (order (akeys active) s) as [keys s1]. cbn [fst snd].
  apply (fold_left_inv _ (placed_inv)); [|intros st x; apply assign_step_placed].
  intros h' [e [[] _]].
Qed.

Theorem assign_entry o active g p s k h c :
  afind h (scr_of (nth_si (fst (fst (fst (assign o active g p s)))) k)) = Some c ->
  afind h (scr_of (nth_si p k)) = Some c \/
  (In h (akeys active) /\ existsb (fun si => amem h (scr_of si)) p = false /\ c = g h).
Proof.
  unfold assign. pose proof (order_perm (akeys active) s) as Hperm.
  destruct (order (akeys active) s) as [keys s1]. cbn [fst snd] in *. intros H.
  apply fold_assign_entry in H. destruct H as [H|(Hin & H)]; [now left|right].
  split; [exact (Permutation.Permutation_in _ Hperm Hin)|exact H].
Qed.

(* sizes are counts: if everything reported and explored is non-negative, so is everything planned *)
Definition cpos (c : cstat) : Prop := 0 <= c_series c /\ 0 <= c_total c.

Section Pos.
Variables (o : opts) (i : input) (s : sst).
Hypothesis Hnd : NoDupReports i.
Hypothesis Hrep : forall k h c, afind h (reported i k) = Some c -> cpos c.
Hypothesis Hexp : forall h c, afind h (i_explore i) = Some c -> cpos c.
Let p0 := map (fun sh => fst (get_info sh)) (i_shards i).

Lemma p0_pos k h c : afind h (scr_of (nth_si p0 k)) = Some c -> cpos c.
Proof. unfold p0. rewrite nth_si_p0, scr_of_info_at. apply Hrep. Qed.

Lemma global_pos : sane (global_status (i_explore i) p0).
Proof.
  intros h. unfold global_status. destruct (first_known p0 h) as [c|] eqn:E.
  - destruct (first_known_entry p0 h c E) as [k [_ Hf]]. apply (p0_pos k h c Hf).
  - destruct (afind h (i_explore i)) as [c|] eqn:Ee; [apply (Hexp h c Ee)|cbn; lia].
Qed.

Lemma p1_pos k h c : afind h (scr_of (nth_si (recover (gc o (i_active i) p0)) k)) = Some c -> cpos c.
Proof.
  rewrite afind_recover. destruct (afind h (scr_of (nth_si (gc o (i_active i) p0) k))) as [c0|] eqn:H0; [|discriminate].
  apply (ge_sub _ _ (gc_ge o (i_active i) p0 (nodup_p0 i Hnd))) in H0. intros [= <-].
  pose proof (p0_pos k h c0 H0) as P. unfold recovered. destruct (si_ok _); [|exact P]. now destruct (_ && _).
Qed.

Lemma p3_pos k h c : disable_alleviate o = true ->
  afind h (scr_of (nth_si (st_p3 (run_stages o i s)) k)) = Some c -> cpos c.
Proof.
  intros Hd. rewrite stages_p3. unfold assign_of. rewrite stages_p2, stages_p1, stages_p0. fold p0.
  rewrite (alleviate_calm o _ s (or_introl Hd)). cbn [fst snd]. intros H.
  apply assign_entry in H. destruct H as [H|(_ & _ & ->)]; [now apply (p1_pos k h)|apply global_pos].
Qed.
End Pos.
