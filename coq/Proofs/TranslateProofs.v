(* Proofs/TranslateProofs.v — C02: label-set algebra (pointwise, no ordering assumptions) and the pieces of the round
   trip through coordinator, sidecar, shard and proxy. *)
From KV Require Import Base.Util Base.Lists Base.StrFacts Model.Inject Model.Translate Proofs.InjectProofs.
From Coq Require Import Permutation.
Local Open Scope list_scope.
Local Open Scope string_scope.

(* label sets (lget) and queries (qval) are both read through Base.Util.lookup (Base/StrFacts.v) *)
Lemma lget_lookup k m : lget k m = lookup k m.
Proof. induction m as [|[k' v] r IH]; simpl; [reflexivity|]. now rewrite IH. Qed.
Lemma lval_lookup k m : lval k m = match lookup k m with Some v => v | None => "" end.
Proof. unfold lval. now rewrite lget_lookup. Qed.
Lemma qval_lookup k q : qval k q = match lookup k q with Some vs => vs | None => [] end.
Proof.
  unfold qval. induction q as [|[k' v] r IH]; simpl; [reflexivity|]. rewrite (String.eqb_sym k' k).
  destruct (String.eqb k k'); [reflexivity|exact IH].
Qed.

(* label sets: names unique, no empty value (labels.Builder drops those); query values: keys unique *)
Definition nd (m : labels) : Prop := NoDup (map fst m).
Definition ne (m : labels) : Prop := forall k v, In (k, v) m -> v <> "".
Definition ndq (q : list (string * list string)) : Prop := NoDup (map fst q).

Lemma lget_some_in k v m : lget k m = Some v -> In (k, v) m.
Proof. rewrite lget_lookup. apply lookup_some_in. Qed.
Lemma lget_in_nd k v m : nd m -> In (k, v) m -> lget k m = Some v.
Proof. rewrite lget_lookup. apply lookup_in_nd. Qed.
Lemma lget_perm k m m' : nd m -> Permutation m m' -> lget k m = lget k m'.
Proof. rewrite !lget_lookup. apply lookup_perm. Qed.
Lemma qval_perm k q q' : ndq q -> Permutation q q' -> qval k q = qval k q'.
Proof. intros Hnd Hp. now rewrite !qval_lookup, (lookup_perm k q q' Hnd Hp). Qed.

Lemma lval_filter_key (P : string -> bool) k m :
  lval k (filter (fun kv => P (fst kv)) m) = if P k then lval k m else "".
Proof. rewrite !lval_lookup, lookup_filter_key. now destruct (P k). Qed.
Lemma qval_filter_key (P : string -> bool) k q :
  qval k (filter (fun kv => P (fst kv)) q) = if P k then qval k q else [].
Proof. rewrite !qval_lookup, lookup_filter_key. now destruct (P k). Qed.

Lemma lval_notin k m : ~ In k (map fst m) -> lval k m = "".
Proof. intros H. now rewrite lval_lookup, lookup_notin. Qed.

Lemma lget_of_lval k m : ne m -> lget k m = if String.eqb (lval k m) "" then None else Some (lval k m).
Proof.
  intros H. unfold lval. destruct (lget k m) as [v|] eqn:E; [|reflexivity].
  apply lget_some_in in E. apply H in E. destruct (String.eqb_spec v ""); [contradiction|reflexivity].
Qed.
Lemma eqb_empty_false s : s <> "" -> String.eqb s "" = false.
Proof. apply String.eqb_neq. Qed.
Lemma if_empty_id s : (if String.eqb s "" then "" else s) = s.
Proof. now destruct (String.eqb_spec s ""). Qed.

Lemma lval_ldel k k' m : lval k' (ldel k m) = if String.eqb k' k then "" else lval k' m.
Proof.
  unfold ldel. rewrite (lval_filter_key (fun x => negb (String.eqb x k))).
  now destruct (String.eqb k' k).
Qed.

(* labels.Builder.Set deletes on an empty value: a caller's own emptiness test changes nothing *)
Lemma lb_set_if k v m : (if String.eqb v "" then ldel k m else lb_set k v m) = lb_set k v m.
Proof. unfold lb_set. now destruct (String.eqb v ""). Qed.

Lemma lval_lb_set k v k' m : lval k' (lb_set k v m) = if String.eqb k' k then v else lval k' m.
Proof.
  unfold lb_set. destruct (String.eqb_spec v "") as [->|Hv]; [apply lval_ldel|].
  unfold lval at 1. cbn [lget]. destruct (String.eqb k' k) eqn:E; [reflexivity|].
  fold (lval k' (ldel k m)). now rewrite lval_ldel, E.
Qed.

Lemma lval_del_meta k m : lval k (del_meta m) = if has_prefix "__meta_" k then "" else lval k m.
Proof.
  unfold del_meta. rewrite (lval_filter_key (fun x => negb (has_prefix "__meta_" x))).
  now destruct (has_prefix "__meta_" k).
Qed.

Lemma lval_set_if_empty k v orig m k' :
  lval k' (set_if_empty k v orig m) = if String.eqb (lval k orig) "" && String.eqb k' k then v else lval k' m.
Proof. unfold set_if_empty. destruct (String.eqb (lval k orig) ""); [apply lval_lb_set|reflexivity]. Qed.

Definition lwf (m : labels) : Prop := nd m /\ ne m.

Lemma ne_filter (f : string * string -> bool) m : ne m -> ne (filter f m).
Proof. intros H k v Hin. apply filter_In in Hin. apply (H k v). tauto. Qed.
Lemma wf_filter (f : string * string -> bool) m : lwf m -> lwf (filter f m).
Proof. intros [H1 H2]. split; [now apply NoDup_map_filter | now apply ne_filter]. Qed.

(* labels.Builder.Set keeps a label set a label set whatever the value: an empty one deletes *)
Lemma wf_lb_set k v m : lwf m -> lwf (lb_set k v m).
Proof.
  intros H. unfold lb_set. destruct (String.eqb_spec v "") as [->|Hv]; [now apply wf_filter|].
  destruct (wf_filter (fun kv => negb (String.eqb (fst kv) k)) m H) as [H1 H2]. split.
  - constructor; [apply notin_keys_del | exact H1].
  - intros k' v' [[= <- <-]|Hin]; [exact Hv | now apply (H2 k' v')].
Qed.
Lemma wf_set_if_empty k v orig m : lwf m -> lwf (set_if_empty k v orig m).
Proof. intros H. unfold set_if_empty. destruct (String.eqb _ _); [now apply wf_lb_set|exact H]. Qed.
Lemma wf_set_params ps m : lwf m -> lwf (set_params ps m).
Proof.
  intros H. unfold set_params. apply fold_left_inv; [exact H|]. intros a [k [|v0 vs]] Ha; [exact Ha | now apply wf_lb_set].
Qed.

Create HintDb lwf discriminated.
#[export] Hint Resolve wf_filter wf_lb_set wf_set_if_empty wf_set_params : lwf.

Lemma lastv_nd k m : nd m -> lastv k m = lget k m.
Proof.
  induction m as [|[k' v'] r IH] using rev_ind; [reflexivity|]. intros Hall.
  rewrite lastv_snoc. cbn [fst snd]. destruct (String.eqb_spec k' k) as [->|Hne].
  - symmetry. apply lget_in_nd; [exact Hall|]. apply in_or_app. right. now left.
  - unfold nd in Hall. rewrite map_app in Hall. apply NoDup_remove_1 in Hall. rewrite app_nil_r in Hall.
    rewrite IH, !lget_lookup, lookup_app by exact Hall. destruct (lookup k r); [reflexivity|].
    simpl. destruct (String.eqb_spec k k'); congruence.
Qed.

Lemma NoDup_app_comm' {A} (a b : list A) : NoDup (a ++ b) -> NoDup (b ++ a).
Proof. intros H. eapply Permutation_NoDup; [apply Permutation_app_comm|exact H]. Qed.

Lemma lval_of_labels k m : nd m -> lval k (of_labels m) = lval k m.
Proof. intros H. unfold lval. now rewrite lget_of_labels, lastv_nd. Qed.

Lemma lval_visible k m : nd m -> lval k (visible m) = if has_prefix "__" k then "" else lval k m.
Proof.
  intros H. unfold visible. rewrite lval_of_labels by (now apply NoDup_map_filter).
  rewrite (lval_filter_key (fun x => negb (has_prefix "__" x))). now destruct (has_prefix "__" k).
Qed.

Lemma prefix_drop p : forall s, has_prefix p s = true -> s = p ++ drop_prefix p s.
Proof.
  unfold has_prefix, drop_prefix. induction p as [|c p IH]; intros s H; simpl.
  - rewrite Nat.sub_0_r. clear H. induction s as [|d s IHs]; simpl; [reflexivity|]. now rewrite <- IHs.
  - destruct s as [|d s]; simpl in H; [discriminate|]. destruct (Ascii.ascii_dec c d) as [->|]; [|discriminate].
    simpl. f_equal. apply IH. exact H.
Qed.

Lemma has_prefix_app p s : has_prefix p (p ++ s) = true.
Proof. unfold has_prefix. induction p as [|x p IH]; simpl; [now destruct s | now destruct (Ascii.ascii_dec x x)]. Qed.

Lemma drop_prefix_app p s : drop_prefix p (p ++ s) = s.
Proof. apply (sapp_inv_head p). symmetry. apply prefix_drop. apply has_prefix_app. Qed.

Lemma has_prefix_weaken a b k : has_prefix (a ++ b) k = true -> has_prefix a k = true.
Proof.
  unfold has_prefix. revert k. induction a as [|c a IH]; intros k H; simpl; [destruct k; reflexivity|].
  destruct k as [|d k]; simpl in H; [discriminate|]. simpl. destruct (Ascii.ascii_dec c d); [|discriminate]. now apply IH.
Qed.

Lemma eqb_drop_prefix p k x : has_prefix p k = true -> String.eqb x (drop_prefix p k) = String.eqb k (p ++ x).
Proof. intros H. rewrite (prefix_drop p k H) at 2. now rewrite eqb_sapp_l, String.eqb_sym. Qed.

Lemma all_chars_impl (f g : Ascii.ascii -> bool) s : (forall c, f c = true -> g c = true) -> all_chars f s = true -> all_chars g s = true.
Proof.
  intros H. induction s as [|c s IH]; simpl; [auto|]. intros Hc. apply andb_true_iff in Hc. destruct Hc as [H1 H2].
  apply andb_true_iff. auto.
Qed.

Lemma translate_url_fields u :
  u_host (translate_url u) = u_host u /\ u_path (translate_url u) = u_path u /\
  u_scheme (translate_url u) = qget "_scheme" (u_query u) /\
  (forall kv, In kv (u_query (translate_url u)) <-> In kv (u_query u) /\ routing (fst kv) = false).
Proof.
  unfold translate_url. cbn [u_host u_path u_scheme u_query].
  split; [reflexivity|]. split; [reflexivity|]. split; [reflexivity|].
  intros kv. rewrite filter_In, negb_true_iff. reflexivity.
Qed.

Lemma qval_qset k f q k' : qval k' (qset k f q) = if String.eqb k' k then f (qval k q) else qval k' q.
Proof.
  unfold qset. unfold qval at 1. cbn [find fst]. rewrite (String.eqb_sym k k').
  destruct (String.eqb k' k) eqn:E; [reflexivity|].
  fold (qval k' (filter (fun kv : string * list string => negb (String.eqb (fst kv) k)) q)).
  rewrite (qval_filter_key (fun x => negb (String.eqb x k))). now rewrite E.
Qed.

Lemma qval_translate k u : qval k (u_query (translate_url u)) = if routing k then [] else qval k (u_query u).
Proof.
  unfold translate_url. cbn [u_query]. rewrite (qval_filter_key (fun x => negb (routing x))). now destruct (routing k).
Qed.

Lemma qget_qval k q : qget k q = match qval k q with v :: _ => v | [] => "" end.
Proof. unfold qget, qval. now destruct (find _ q) as [[a [|v t]]|]. Qed.

Lemma shipped_param_rule ps k v :
  without_config_param ps [("__param_" ++ k, v)] =
  match find (fun p => String.eqb (fst p) (drop_prefix "__param_" ("__param_" ++ k))) ps with
  | Some (_, v0 :: _) => if String.eqb v v0 then [] else [(invalid_prefix ++ "__param_" ++ k, v)]
  | _ => [("__param_" ++ k, v)]
  end.
Proof.
  unfold without_config_param. cbn [flat_map fst snd]. rewrite has_prefix_app.
  destruct (find _ ps) as [[a [|v0 vs]]|]; try reflexivity. destruct (String.eqb v v0); reflexivity.
Qed.

Fixpoint pfirst (ps : list (string * list string)) (k : string) : option string :=
  match ps with
  | [] => None
  | (x, vs) :: r =>
    match pfirst r k with
    | Some v => Some v
    | None => match vs with v0 :: _ => if String.eqb k ("__param_" ++ x) then Some v0 else None | [] => None end
    end
  end.

Lemma lval_set_params ps k : forall m, lval k (set_params ps m) = match pfirst ps k with Some v => v | None => lval k m end.
Proof.
  unfold set_params. induction ps as [|[x vs] r IH]; intros m; [reflexivity|].
  cbn [fold_left pfirst fst snd]. rewrite IH. destruct (pfirst r k); [reflexivity|].
  destruct vs as [|v0 vs]; [reflexivity|]. rewrite lval_lb_set. now destruct (String.eqb k _).
Qed.

Lemma pfirst_none ps k : has_prefix "__param_" k = false -> pfirst ps k = None.
Proof.
  intros H. induction ps as [|[x vs] r IH]; [reflexivity|]. cbn [pfirst]. rewrite IH.
  destruct vs as [|v0 vs]; [reflexivity|]. destruct (String.eqb_spec k ("__param_" ++ x)) as [->|]; [|reflexivity].
  now rewrite has_prefix_app in H.
Qed.

Lemma pfirst_qval ps x : ndq ps -> pfirst ps ("__param_" ++ x) = match qval x ps with v0 :: _ => Some v0 | [] => None end.
Proof.
  induction ps as [|[y vs] r IH]; intros Hnd; [reflexivity|].
  change (NoDup (y :: map fst r)) in Hnd. apply NoDup_cons_iff in Hnd. destruct Hnd as [Hn Hr].
  cbn [pfirst]. rewrite eqb_sapp_l, IH, !qval_lookup by exact Hr. cbn [lookup].
  destruct (String.eqb_spec x y) as [->|]; [|destruct (lookup x r) as [[|w ws]|], vs; reflexivity].
  rewrite (lookup_notin y r Hn). now destruct vs.
Qed.

Lemma ndq_qset k f q : ndq q -> ndq (qset k f q).
Proof. intros H. constructor; [apply notin_keys_del | now apply NoDup_map_filter]. Qed.
Lemma ndq_url_query ps l : ndq ps -> ndq (url_query ps l).
Proof.
  intros H. unfold url_query. apply fold_left_inv; [exact H|]. intros q kv Hq. destruct (has_prefix _ _); [now apply ndq_qset|exact Hq].
Qed.

Lemma qval_url_query x l ps : nd l ->
  qval x (url_query ps l) = match lget ("__param_" ++ x) l with Some v => v :: tl (qval x ps) | None => qval x ps end.
Proof.
  intros Hnd. rewrite <- lastv_nd by exact Hnd.
  apply (fold_last (qval x) _ ("__param_" ++ x) (fun v vs => v :: tl vs)); [|reflexivity].
  intros q [k v]. cbn [fst snd]. destruct (has_prefix "__param_" k) eqn:Ep.
  - rewrite qval_qset, (eqb_drop_prefix _ _ _ Ep).
    destruct (String.eqb_spec k ("__param_" ++ x)) as [->|]; [now rewrite drop_prefix_app|reflexivity].
  - destruct (String.eqb_spec k ("__param_" ++ x)) as [->|]; [|reflexivity]. now rewrite has_prefix_app in Ep.
Qed.

Lemma sort_query_perm q : Permutation (sort_query q) q.
Proof. exact (isort_perm _ q). Qed.

(* an entry without values reads like an absent one *)
Lemma qval_filter_nonempty k q : ndq q ->
  qval k (filter (fun kv : string * list string => match snd kv with [] => false | _ => true end) q) = qval k q.
Proof.
  rewrite !qval_lookup. induction q as [|[k' vs] r IH]; intros H; [reflexivity|].
  apply NoDup_cons_iff in H. destruct H as [Hn Hr]. destruct vs as [|v vs]; cbn [filter snd lookup].
  - destruct (String.eqb_spec k k') as [->|]; [|auto].
    rewrite lookup_notin; [reflexivity|]. intros Hin. apply Hn. revert Hin. apply incl_map, incl_filter.
  - destruct (String.eqb k k'); [reflexivity|auto].
Qed.

Lemma qval_target_url x ps l : ndq ps -> nd l ->
  qval x (u_query (target_url ps l)) =
  match lget ("__param_" ++ x) l with Some v => v :: tl (qval x ps) | None => qval x ps end.
Proof.
  intros Hps Hl. unfold target_url. cbn [u_query].
  set (q := filter _ (url_query ps l)).
  assert (Hq : ndq q) by (apply NoDup_map_filter; now apply ndq_url_query).
  rewrite <- (qval_perm x q (sort_query q) Hq (Permutation_sym (sort_query_perm q))).
  unfold q. rewrite qval_filter_nonempty by (now apply ndq_url_query). now apply qval_url_query.
Qed.

(* the name an entry is shipped under (None: not shipped) *)
Definition ship_name (ps : list (string * list string)) (k v : string) : option string :=
  let n1 := if has_prefix "__param_" k
            then match qval (drop_prefix "__param_" k) ps with
                 | v0 :: _ => if String.eqb v v0 then None else Some (invalid_prefix ++ k)
                 | [] => Some k
                 end
            else Some k in
  match n1 with Some n => Some (if valid_name n then n else invalid_prefix ++ n) | None => None end.
Definition ship1 (ps : list (string * list string)) (kv : string * string) : labels :=
  match ship_name ps (fst kv) (snd kv) with Some n => [(n, snd kv)] | None => [] end.

Lemma shipped_flat_map ps l : shipped ps l = flat_map (ship1 ps) l.
Proof.
  unfold shipped, support_invalid, without_config_param. induction l as [|[k v] r IH]; [reflexivity|].
  cbn [flat_map]. rewrite map_app, IH. f_equal. unfold ship1, ship_name, qval. cbn [fst snd].
  assert (Hleaf : forall n, map (fun kv : string * string => if valid_name (fst kv) then kv else (invalid_prefix ++ fst kv, snd kv)) [(n, v)]
                          = [(if valid_name n then n else invalid_prefix ++ n, v)]).
  { intros n. cbn [map fst snd]. now destruct (valid_name n). }
  destruct (has_prefix "__param_" k); [|apply Hleaf].
  destruct (find _ ps) as [[a [|v0 vs]]|]; try apply Hleaf.
  destruct (String.eqb v v0); [reflexivity|apply Hleaf].
Qed.

Lemma in_shipped ps l n v : In (n, v) (shipped ps l) <-> exists k, In (k, v) l /\ ship_name ps k v = Some n.
Proof.
  rewrite shipped_flat_map, in_flat_map. split.
  - intros [[k w] [Hin H]]. unfold ship1 in H. cbn [fst snd] in H.
    destruct (ship_name ps k w) as [n'|] eqn:E; [|contradiction]. destruct H as [[= <- <-]|[]]. eauto.
  - intros [k [Hin E]]. exists (k, v). split; [exact Hin|]. unfold ship1. cbn [fst snd]. rewrite E. now left.
Qed.

Lemma valid_prefixed k : valid_name k = true -> valid_name (invalid_prefix ++ k) = true.
Proof.
  intros H. unfold invalid_prefix. cbn [String.append valid_name all_chars].
  destruct k as [|c k]; [discriminate|]. cbn [valid_name] in H. apply andb_true_iff in H. destruct H as [Hc Hk].
  cbn. rewrite Hk. unfold is_name_char. rewrite Hc. reflexivity.
Qed.

Lemma ship_name_plain ps k v : has_prefix "__param_" k = false ->
  ship_name ps k v = Some (if valid_name k then k else invalid_prefix ++ k).
Proof. intros H. unfold ship_name. now rewrite H. Qed.

Lemma ship_name_param ps x v : valid_name ("__param_" ++ x) = true ->
  ship_name ps ("__param_" ++ x) v =
  match qval x ps with
  | v0 :: _ => if String.eqb v v0 then None else Some (invalid_prefix ++ "__param_" ++ x)
  | [] => Some ("__param_" ++ x)
  end.
Proof.
  intros H. unfold ship_name. rewrite has_prefix_app, drop_prefix_app.
  destruct (qval x ps) as [|v0 t]; [now rewrite H|]. destruct (String.eqb v v0); [reflexivity|].
  now rewrite (valid_prefixed _ H).
Qed.

Record shippable (ps : list (string * list string)) (l : labels) : Prop := {
  sp_nd : nd l;
  sp_noprefix : forall k v, In (k, v) l -> has_prefix invalid_prefix k = false;      (* no label already carries the prefix *)
  sp_param_valid : forall k v, In (k, v) l -> has_prefix "__param_" k = true -> valid_name k = true;
}.

(* where a shipped name comes from *)
Definition src (k' : string) : string := if has_prefix invalid_prefix k' then drop_prefix invalid_prefix k' else k'.

Lemma src_prefixed k : src (invalid_prefix ++ k) = k.
Proof. unfold src. now rewrite has_prefix_app, drop_prefix_app. Qed.

Lemma ship_name_src ps l k v k' : shippable ps l -> In (k, v) l -> ship_name ps k v = Some k' -> k = src k'.
Proof.
  intros Hs Hin E. pose proof (sp_noprefix _ _ Hs k v Hin) as Hnp.
  assert (Hk : k' = k \/ k' = invalid_prefix ++ k).
  { destruct (has_prefix "__param_" k) eqn:Ep.
    - rewrite (prefix_drop _ _ Ep), ship_name_param in E by (rewrite <- (prefix_drop _ _ Ep); eapply sp_param_valid; eauto).
      rewrite <- (prefix_drop _ _ Ep) in E.
      destruct (qval _ ps); [|destruct (String.eqb v _); [discriminate|]]; injection E as <-; auto.
    - rewrite ship_name_plain in E by exact Ep. injection E as <-. destruct (valid_name k); auto. }
  destruct Hk as [-> | ->]; [unfold src; now rewrite Hnp | symmetry; apply src_prefixed].
Qed.

Lemma shippable_tail ps kv r : shippable ps (kv :: r) -> shippable ps r.
Proof.
  intros [H1 H2 H3]. constructor.
  - now inversion H1.
  - intros k v Hin. apply (H2 k v). now right.
  - intros k v Hin. apply (H3 k v). now right.
Qed.

(* shipped names are unique: a name determines the label it comes from *)
Lemma wf_shipped ps l : shippable ps l -> ne l -> lwf (shipped ps l).
Proof.
  intros Hs Hne. split.
  - rewrite shipped_flat_map. induction l as [|[k v] r IH]; [constructor|].
    specialize (IH (shippable_tail _ _ _ Hs) (fun k v H => Hne k v (or_intror H))).
    cbn [flat_map]. unfold ship1 at 1. cbn [fst snd]. destruct (ship_name ps k v) as [n|] eqn:En; [|exact IH].
    change (NoDup (n :: map fst (flat_map (ship1 ps) r))). constructor; [|exact IH].
    intros Hin. apply in_map_iff in Hin. destruct Hin as [[n' w] [Hk Hin]]. cbn [fst] in Hk. subst n'.
    rewrite <- shipped_flat_map in Hin. apply in_shipped in Hin. destruct Hin as [k2 [Hin2 En2]].
    assert (k2 = k).
    { rewrite (ship_name_src ps _ k v n Hs (or_introl eq_refl) En).
      apply (ship_name_src ps _ k2 w n Hs (or_intror Hin2) En2). }
    subst k2. pose proof (sp_nd _ _ Hs) as Hnd. inversion Hnd as [|? ? Hn _]. apply Hn. exact (in_map fst _ _ Hin2).
  - intros n v Hin. apply in_shipped in Hin. destruct Hin as [k [Hin _]]. now apply (Hne k v).
Qed.

Lemma lval_shipped ps l k' : shippable ps l -> ne l ->
  lval k' (shipped ps l) =
  match lget (src k') l with
  | Some v => match ship_name ps (src k') v with Some n => if String.eqb k' n then v else "" | None => "" end
  | None => ""
  end.
Proof.
  intros Hs Hne. destruct (wf_shipped ps l Hs Hne) as [Hnd _]. unfold lval at 1.
  destruct (lget k' (shipped ps l)) as [v|] eqn:E.
  - apply lget_some_in, in_shipped in E. destruct E as [k [Hin En]].
    rewrite <- (ship_name_src ps l k v k' Hs Hin En), (lget_in_nd k v l (sp_nd _ _ Hs) Hin), En.
    now rewrite String.eqb_refl.
  - destruct (lget (src k') l) as [v|] eqn:El; [|reflexivity].
    destruct (ship_name ps (src k') v) as [n|] eqn:En; [|reflexivity].
    destruct (String.eqb_spec k' n) as [->|]; [|reflexivity].
    rewrite (lget_in_nd n v _ Hnd) in E; [discriminate|]. apply in_shipped. exists (src n). split; [now apply lget_some_in|exact En].
Qed.

Definition lm_step (m : labels) (kv : string * string) : labels :=
  if has_prefix invalid_prefix (fst kv) && Nat.ltb (String.length invalid_prefix) (String.length (fst kv))
  then lb_set (drop_prefix invalid_prefix (fst kv)) (snd kv) m else m.

Lemma labelmap_unfold l : labelmap_invalid l = Some (fold_left lm_step l l).
Proof. reflexivity. Qed.

Lemma wf_lm_fold srcl acc : lwf acc -> lwf (fold_left lm_step srcl acc).
Proof.
  intros H. apply fold_left_inv; [exact H|]. intros a kv Ha. unfold lm_step. destruct (_ && _); [now apply wf_lb_set|exact Ha].
Qed.

Lemma lval_lm_step k m kv : k <> "" ->
  lval k (lm_step m kv) = if String.eqb (fst kv) (invalid_prefix ++ k) then snd kv else lval k m.
Proof.
  intros Hk. unfold lm_step. destruct (has_prefix invalid_prefix (fst kv)) eqn:Ep; cbn [andb].
  - destruct (Nat.ltb_spec (String.length invalid_prefix) (String.length (fst kv))) as [Hl|Hl].
    + now rewrite lval_lb_set, (eqb_drop_prefix _ _ _ Ep).
    + destruct (String.eqb_spec (fst kv) (invalid_prefix ++ k)) as [E|]; [|reflexivity].
      rewrite E, sapp_length in Hl. destruct k; [congruence|simpl in Hl; lia].
  - destruct (String.eqb_spec (fst kv) (invalid_prefix ++ k)) as [E|]; [|reflexivity].
    now rewrite E, has_prefix_app in Ep.
Qed.

Lemma lval_lm_fold k srcl acc : k <> "" -> nd srcl ->
  lval k (fold_left lm_step srcl acc) = match lget (invalid_prefix ++ k) srcl with Some v => v | None => lval k acc end.
Proof.
  intros Hk Hnd. rewrite <- lastv_nd by exact Hnd.
  apply (fold_last (lval k) lm_step (invalid_prefix ++ k) (fun v _ => v)); [|reflexivity].
  intros a e. now apply lval_lm_step.
Qed.

Lemma lval_lm_fold_empty srcl acc : lval "" (fold_left lm_step srcl acc) = lval "" acc.
Proof.
  apply fold_left_inv; [reflexivity|]. intros a kv <-. unfold lm_step.
  destruct (has_prefix invalid_prefix (fst kv)) eqn:Ep; [|reflexivity].
  destruct (Nat.ltb_spec (String.length invalid_prefix) (String.length (fst kv))) as [Hl|Hl]; [|reflexivity].
  cbn [andb]. rewrite lval_lb_set. destruct (String.eqb_spec "" (drop_prefix invalid_prefix (fst kv))) as [E|]; [|reflexivity].
  rewrite (prefix_drop _ _ Ep), <- E, sapp_nil_r in Hl. lia.
Qed.
