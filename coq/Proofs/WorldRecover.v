(* Proofs/WorldRecover.v — C06: recovery after faults, as one theorem in the regime without relief and consolidation.
   Every step of a history - cycles with ANY faults (lost updates, unreachable / unready / out-of-sync shards) under any
   iteration order, scrape rounds, ticks, sidecar restarts, changes of the discovered set - keeps the invariants that
   Proofs/WorldConverge.v starts from (well-formedness, store in step, sizes non-negative); hence once the faults stop the
   bounded-convergence theorem applies to whatever world the faults left behind. *)
From KV Require Import Base.Util Base.AMap Model.Coordinator Model.Sidecar Model.World Proofs.SidecarProofs
  Proofs.WorldProofs Proofs.WorldNoGap Proofs.WorldConverge.
Local Open Scope list_scope.
Local Open Scope Z_scope.

Definition tgpos (a : assignment) : Prop := forall t, In t (all_targets a) -> 0 <= t_series t /\ 0 <= t_total t.
(* sizes are counts: in every status map and in every assignment a sidecar holds (and, being in step, has stored) *)
Definition wpos2 (w : world) : Prop := forall k, mpos (status_at w k) /\ tgpos (sc_targets (ws_sc (nth k (w_shards w) dws))).

Lemma wpos2_wpos w : wpos2 w -> wpos w.
Proof. intros H k. apply H. Qed.

(* the same of one sidecar; a restart rebuilds the status map from the assignment, so both halves are needed *)
Definition scpos (sc : sidecar) : Prop := mpos (sc_status sc) /\ tgpos (sc_targets sc).

Lemma fresh_scpos now : scpos (ws_sc (fresh_shard now)).
Proof. split; [apply fresh_pos | intros t []]. Qed.

Lemma restart_pos sc now : stored sc -> wf sc -> scpos sc -> scpos (do_restart sc now).
Proof.
  intros Hs Hwf [_ Htg]. rewrite (do_restart_stored _ _ _ now Hs). split; [|exact Htg]. cbn [sc_status].
  apply update_status_pos; [apply (wf_nodup _ Hwf) | intros h e H; discriminate | exact Htg].
Qed.

Definition spos_inv (sc : sidecar) : Prop := wf sc /\ stored sc /\ scpos sc.

Lemma pos_ops tru : tpos tru -> ops_keep (fun req => NoDup (hashes req) /\ tgpos req) (scrape_result_of tru) spos_inv.
Proof.
  intros Ht. constructor.
  - intros now. split; [apply wf_start|]. split; [reflexivity | apply (fresh_scpos now)].
  - intros sc req now (W & _ & [Hm _]) [Hnd Hreq]. split; [now apply (ok_update _ _ _ (wf_ops (scrape_result_of tru)))|].
    split; [reflexivity|]. split; [rewrite do_update_status; now apply update_status_pos | now rewrite do_update_targets].
  - intros sc h (W & S & [Hm Htg]). split; [now apply wf_do_scrape|].
    split; [now apply (ok_scrape _ _ _ (stored_ops (scrape_result_of tru)))|]. split; [|now rewrite do_scrape_targets].
    apply do_scrape_pos; [exact Hm|]. unfold scrape_result_of. cbn zeta. destruct (tr_healthy _); [apply Ht|exact I].
  - intros sc now (W & S & Hp). split; [now apply wf_do_restart|]. split; [reflexivity | now apply restart_pos].
Qed.

Lemma winv_pos_Forall o w : winv o w -> wpos2 w -> Forall (fun s => spos_inv (ws_sc s)) (w_shards w).
Proof.
  intros [Hw Hs _] Hp. apply Forall_forall. intros s Hin. destruct (In_nth _ _ dws Hin) as [k [_ <-]].
  split; [now apply wf_at|]. split; [now apply synced_stored, synced_at | apply Hp].
Qed.

Lemma Forall_wpos2 w : Forall (fun s => spos_inv (ws_sc s)) (w_shards w) -> wpos2 w.
Proof.
  intros H k. apply (Forall_nth_d (fun s => spos_inv (ws_sc s)) _ dws k H).
  split; [apply wf_start|]. split; [reflexivity | apply fresh_scpos].
Qed.

Theorem faulty_cycle_keeps_pos o tru w f sch : regime o -> winv o w -> tpos tru -> wpos2 w -> wpos2 (model_cycle o tru w f sch).
Proof.
  intros R Hi Ht Hp2. apply Forall_wpos2, (keep_apply_cycle tru _ _ (pos_ops tru Ht)); [now apply (winv_pos_Forall o)|].
  apply Forall_forall. intros p Hin body ->. destruct (In_nth _ _ None Hin) as [k [_ Eb]].
  destruct (post_body_pos o tru w f sch k body R (wi_wf o w Hi) Ht (wpos2_wpos w Hp2) Eb) as [Hu Htg].
  split; [now apply request_unique | exact Htg].
Qed.

Theorem det_step_keeps_pos o tru w st : winv o w -> tpos tru -> wpos2 w -> wpos2 (lstep_det tru w st).
Proof. intros Hi Ht Hp. now apply Forall_wpos2, (keep_lstep_det tru _ _ (pos_ops tru Ht)), (winv_pos_Forall o). Qed.

Theorem history_keeps_invariants o tru : regime o -> tpos tru -> forall steps w, winv o w -> wpos2 w ->
  winv o (fold_left (hist_step o tru) steps w) /\ wpos2 (fold_left (hist_step o tru) steps w).
Proof.
  intros R Ht steps w Hi Hp. apply (fold_left_inv _ (fun w => winv o w /\ wpos2 w)); [now split|].
  clear w Hi Hp. intros w [st sch] [Hi Hp]. split; [apply winv_hist_step; [apply (rg_mm o R)|exact Hi]|].
  unfold hist_step. cbn [fst snd]. destruct st; try (now apply (det_step_keeps_pos o)). now apply faulty_cycle_keeps_pos.
Qed.

(* C06: whatever a history of faults left behind, once they stop the system converges within the bound of C03 *)
Theorem recovers_after_faults o tru steps schs w0 : regime o -> 0 <= max_head o -> tpos tru ->
  winv o w0 -> wpos2 w0 ->
  let w := fold_left (hist_step o tru) steps w0 in
  NoDup (w_active w) ->
  (2 <= length schs)%nat -> (Z.to_nat (max_shard o - Z.of_nat (length (w_shards w))) < length schs)%nat ->
  let w' := fold_left (calm_round_with o tru) schs w in
  wclean w' /\
  forall h, In h (w_active w) -> eligible o tru h ->
    Z.of_nat (length (w_shards w')) = max_shard o \/
    exists k, (k < length (w_shards w'))%nat /\
      (exists e, afind h (status_at w' k) = Some e /\ ss_state e = Normal) /\
      forall j, j <> k -> (j < length (w_shards w'))%nat -> afind h (status_at w' j) = None.
Proof.
  intros R Hmh Ht Hi Hp. cbn zeta. destruct (history_keeps_invariants o tru R Ht steps w0 Hi Hp) as [Hi' Hp'].
  intros Hnd H2 Hlen. apply converges_in_regime; auto. now apply wpos2_wpos.
Qed.
