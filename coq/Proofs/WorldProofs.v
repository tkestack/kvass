(* Proofs/WorldProofs.v — C03 / C06: the closed loop, first layer.
   At the head and at the end, about the coordinator alone (kept here with first_event_for and sane, which Proofs/CoordLive.v
   takes from this file): an eligible target that assignNoScrapingTargets visits is placed or adds its size to the needed
   space (assign_places_or_needs), and then the clamped request exceeds the current count as long as max-shard allows
   (place_or_grow).
   In between, the world: every world step - including every fault - keeps every sidecar's bookkeeping well formed (the
   C10 invariant), so that the fault-free analysis may start from any state faults can produce; what the coordinator is
   told about a world, and what a cycle's answers do to its shards. *)
From KV Require Import Base.Util Base.AMap Base.Sched Model.Coordinator Model.CoordCheck Model.Sidecar Model.World
  Proofs.CoordBasics Proofs.CoordC01 Proofs.SidecarProofs.
From Coq Require Import Permutation.
Local Open Scope list_scope.
Local Open Scope Z_scope.

Definition first_event_for (h : N) (evs : list event) : Prop :=
  exists e, In e evs /\ ev_hash e = h /\ match ev_kind_of e with First => True | _ => False end.

Definition sane (g : N -> cstat) : Prop := forall h, 0 <= c_series (g h) /\ 0 <= c_total (g h).

Record as_mono (a b : assign_state) : Prop := {
  am_h : fst (as_need a) <= fst (as_need b);
  am_p : snd (as_need a) <= snd (as_need b);
  am_e : forall e, In e (as_events a) -> In e (as_events b);
}.

Lemma assign_step_mono o scraped g st h : sane g -> as_mono st (assign_step o scraped g st h).
Proof.
  intros Hs. unfold assign_step.
  destruct (scraped h); [constructor; auto; lia|].
  destruct (negb (health_eqb (c_health (g h)) Good)); [constructor; auto; lia|].
  destruct (is_too_big o (g h)); [constructor; auto; lia|].
  destruct (get_free_shard _ _ _ _ _ _) as [[j|] s']; constructor; cbn [as_need as_events fst snd]; auto; try lia.
  - intros e He. apply in_or_app. now left.
  - destruct (Hs h). lia.
  - destruct (Hs h). lia.
Qed.

Lemma assign_step_decides o scraped g st h :
  scraped h = false -> c_health (g h) = Good -> is_too_big o (g h) = false ->
  let st' := assign_step o scraped g st h in
  first_event_for h (as_events st') \/
  (fst (as_need st) + c_series (g h) <= fst (as_need st') /\ snd (as_need st) + c_total (g h) <= snd (as_need st')).
Proof.
  intros Hsc Hh Hb. cbn zeta. unfold assign_step. rewrite Hsc, Hh, Hb. simpl.
  destruct (get_free_shard _ _ _ _ _ _) as [[j|] s']; cbn [as_need as_events fst snd].
  - left. exists (mk_event First (as_plan st) None j h (g h)). split; [apply in_or_app; right; left; reflexivity|].
    split; reflexivity.
  - right. lia.
Qed.

Lemma fold_assign_mono o scraped g l st : sane g -> as_mono st (fold_left (assign_step o scraped g) l st).
Proof.
  intros Hs. apply fold_left_inv; [constructor; auto; lia|]. intros a h [H1 H2 H3].
  destruct (assign_step_mono o scraped g a h Hs) as [? ? ?]. constructor; auto; lia.
Qed.

(* before h is visited the needed space only grows; at h it is placed or counted; afterwards both are kept *)
Lemma fold_assign_decides o scraped g l h st :
  sane g -> In h l -> scraped h = false -> c_health (g h) = Good -> is_too_big o (g h) = false ->
  let st' := fold_left (assign_step o scraped g) l st in
  first_event_for h (as_events st') \/
  (fst (as_need st) + c_series (g h) <= fst (as_need st') /\ snd (as_need st) + c_total (g h) <= snd (as_need st')).
Proof.
  intros Hs Hin Hsc Hh Hb. cbn zeta. apply in_split in Hin. destruct Hin as [l1 [l2 ->]].
  rewrite fold_left_app. cbn [fold_left].
  pose proof (fold_assign_mono o scraped g l1 st Hs) as M1. set (st1 := fold_left _ l1 st) in *.
  pose proof (fold_assign_mono o scraped g l2 (assign_step o scraped g st1 h) Hs) as M2.
  destruct (assign_step_decides o scraped g st1 h Hsc Hh Hb) as [[e [He Hk]]|[H1 H2]].
  - left. exists e. split; [apply (am_e _ _ M2), He | exact Hk].
  - right. destruct M1, M2. lia.
Qed.

(* assignNoScrapingTargets: a discovered, healthy, not oversized target nobody plans is placed, or its whole size is
   added to the needed space - for every iteration order *)
Theorem assign_places_or_needs o active g p s h :
  sane g -> In h (akeys active) -> existsb (fun si => amem h (scr_of si)) p = false ->
  c_health (g h) = Good -> is_too_big o (g h) = false ->
  let r := assign o active g p s in
  first_event_for h (snd (fst r)) \/
  (c_series (g h) <= fst (snd (fst (fst r))) /\ c_total (g h) <= snd (snd (fst (fst r)))).
Proof.
  intros Hs Hin Hsc Hh Hb. cbn zeta. unfold assign.
  pose proof (order_perm (akeys active) s) as Hperm.
  destruct (order (akeys active) s) as [keys s1]. cbn [fst snd] in *.
  assert (Hk : In h keys) by (eapply Permutation_in; [apply Permutation_sym; exact Hperm | exact Hin]).
  pose proof (fold_assign_decides o (fun h0 => existsb (fun si => amem h0 (scr_of si)) p) g keys h
                {| as_plan := p; as_need := (0, 0); as_events := []; as_sst := s1 |} Hs Hk Hsc Hh Hb) as H.
  cbn zeta in H. cbn [as_need fst snd] in H. destruct H as [H|[H1 H2]]; [now left | right; lia].
Qed.

Definition wwf (w : world) : Prop := Forall (fun s => wf (ws_sc s)) (w_shards w).

Definition body_unique (body : list ptarget) : Prop := NoDup (map pt_hash body).

Definition mk_tgt (tru : amap truth) (p : ptarget) : tgt :=
  {| t_hash := pt_hash p; t_series := pt_series p;
     t_total := if tr_healthy (truth_of tru (pt_hash p)) then tr_total (truth_of tru (pt_hash p)) else 0;
     t_state := pt_state p |}.

Lemma all_targets_group_add j t a : Permutation (all_targets (group_add j t a)) (t :: all_targets a).
Proof.
  unfold all_targets. induction a as [|[j' ts] r IH]; simpl; [reflexivity|].
  destruct (N.eqb j j'); simpl.
  - rewrite <- app_assoc. simpl. rewrite <- Permutation_middle. reflexivity.
  - rewrite IH. rewrite <- Permutation_middle. reflexivity.
Qed.

Lemma all_targets_request_of tru body : Permutation (all_targets (request_of tru body)) (rev (map (mk_tgt tru) body)).
Proof.
  unfold request_of. rewrite <- fold_left_rev_right. rewrite <- map_rev.
  induction (rev body) as [|p r IH]; simpl; [reflexivity|].
  rewrite all_targets_group_add. now constructor.
Qed.

Lemma In_request_of tru body t : In t (all_targets (request_of tru body)) <-> exists p, mk_tgt tru p = t /\ In p body.
Proof.
  rewrite <- in_map_iff, (in_rev (map (mk_tgt tru) body)). split; apply Permutation_in; [|symmetry]; apply all_targets_request_of.
Qed.

Lemma hashes_request_of tru body : Permutation (hashes (request_of tru body)) (rev (map pt_hash body)).
Proof.
  unfold hashes. rewrite (Permutation_map t_hash (all_targets_request_of tru body)).
  now rewrite <- map_rev, map_map, map_rev.
Qed.

Lemma In_hashes_request_of tru body h : In h (hashes (request_of tru body)) <-> In h (map pt_hash body).
Proof. rewrite (in_rev (map pt_hash body)). split; apply Permutation_in; [|symmetry]; apply hashes_request_of. Qed.

Lemma request_unique tru body : body_unique body -> NoDup (hashes (request_of tru body)).
Proof.
  intros H. eapply Permutation_NoDup; [apply Permutation_sym, hashes_request_of|].
  apply NoDup_rev. exact H.
Qed.

Lemma update_request_find tru old body h e : body_unique body ->
  afind h (update_status old (request_of tru body)) = Some e <->
  exists p, In p body /\ pt_hash p = h /\ e = entry_for old (mk_tgt tru p).
Proof.
  intros Hu. rewrite (update_status_find old _ h e (request_unique tru body Hu)). split.
  - intros [t [Hin [<- ->]]]. apply In_request_of in Hin. destruct Hin as [p [<- Hp]]. now exists p.
  - intros [p [Hp [<- ->]]]. exists (mk_tgt tru p). split; [apply In_request_of; eauto|auto].
Qed.

Lemma after_cycle_sc tru w f k s post :
  ws_sc (after_cycle_shard tru w f k s post) =
  match post with
  | Some body => if negb (hit (f_unreachable f) k) && negb (hit (f_post_lost f) k)
                 then fst (do_update (ws_sc s) (request_of tru body) (w_now w) true) else ws_sc s
  | None => ws_sc s
  end.
Proof. reflexivity. Qed.

Lemma after_cycle_sc_calm tru w k s post :
  ws_sc (after_cycle_shard tru w no_faults k s post) =
  match post with
  | Some body => fst (do_update (ws_sc s) (request_of tru body) (w_now w) true)
  | None => ws_sc s
  end.
Proof. reflexivity. Qed.

(* whatever the faults: the sidecar is as it was, or has taken the update *)
Lemma after_cycle_sc_inv (R : sidecar -> Prop) tru w f k s post :
  R (ws_sc s) -> (forall body, post = Some body -> R (fst (do_update (ws_sc s) (request_of tru body) (w_now w) true))) ->
  R (ws_sc (after_cycle_shard tru w f k s post)).
Proof.
  intros Hs Hu. rewrite after_cycle_sc. destruct post as [body|]; [|exact Hs].
  destruct (_ && _); [now apply Hu | exact Hs].
Qed.

Lemma wf_fresh now : wf (ws_sc (fresh_shard now)).
Proof. apply wf_start. Qed.

Lemma zip_length tru w f : forall l a posts, length (zip_posts tru a l posts w f) = length l.
Proof. induction l as [|x r IH]; intros a posts; simpl; [reflexivity|]. now rewrite IH. Qed.

Lemma nth_zip tru w f d : forall l a posts k, (k < length l)%nat ->
  nth k (zip_posts tru a l posts w f) d = after_cycle_shard tru w f (a + k) (nth k l d) (nth k posts None).
Proof.
  induction l as [|x r IH]; intros a posts k Hk; [simpl in Hk; lia|].
  destruct k as [|k]; simpl.
  - rewrite Nat.add_0_r. now destruct posts.
  - rewrite IH by (simpl in Hk; lia). replace (S a + k)%nat with (a + S k)%nat by lia.
    destruct posts as [|p0 pt]; [now destruct k|reflexivity].
Qed.

Lemma rescale_length now want l : length (rescale now want l) = Z.to_nat want.
Proof.
  unfold rescale. destruct (Nat.leb_spec (Z.to_nat want) (length l)).
  - rewrite firstn_length. lia.
  - rewrite app_length, repeat_length. lia.
Qed.

Lemma rescale_keeps now want l k d :
  (k < length l)%nat -> (Z.of_nat (S k) <= want) ->
  (k < length (rescale now want l))%nat /\ nth k (rescale now want l) d = nth k l d.
Proof.
  intros Hk Hw. unfold rescale. destruct (Nat.leb_spec (Z.to_nat want) (length l)) as [Hle|Hgt].
  - split; [rewrite firstn_length; lia | apply nth_firstn_lt; lia].
  - split; [rewrite app_length; lia | now apply app_nth1].
Qed.

Lemma rescale_grows now want l : Z.of_nat (length l) <= want ->
  rescale now want l = l ++ repeat (fresh_shard now) (Z.to_nat want - length l).
Proof.
  intros Hw. unfold rescale. destruct (Nat.leb_spec (Z.to_nat want) (length l)) as [Hle|Hgt]; [|reflexivity].
  replace (Z.to_nat want - length l)%nat with 0%nat by lia. rewrite firstn_all2 by lia. symmetry. apply app_nil_r.
Qed.

Lemma apply_cycle_length tru w f posts scales :
  length (w_shards (apply_cycle tru w f posts scales)) =
  match scales with [] => length (w_shards w) | _ => Z.to_nat (last scales 0) end.
Proof. unfold apply_cycle. cbn [w_shards]. destruct scales; [apply zip_length | apply rescale_length]. Qed.

Lemma apply_cycle_keeps tru w f posts scales k d :
  (k < length (w_shards w))%nat -> (forall r, In r scales -> Z.of_nat (S k) <= r) ->
  (k < length (w_shards (apply_cycle tru w f posts scales)))%nat /\
  nth k (w_shards (apply_cycle tru w f posts scales)) d =
  after_cycle_shard tru w f k (nth k (w_shards w) d) (nth k posts None).
Proof.
  intros Hk Hsc. unfold apply_cycle. cbn [w_shards].
  pose proof (nth_zip tru w f d (w_shards w) 0 posts k Hk) as Hz. cbn [Nat.add] in Hz. rewrite <- Hz.
  rewrite <- (zip_length tru w f (w_shards w) 0 posts) in Hk.
  destruct scales as [|x r]; [now split|]. apply rescale_keeps; [exact Hk|]. apply Hsc, last_in. discriminate.
Qed.

Lemma apply_cycle_grows tru w f posts scales :
  (forall r, In r scales -> Z.of_nat (length (w_shards w)) <= r) ->
  exists m, w_shards (apply_cycle tru w f posts scales) =
            zip_posts tru 0 (w_shards w) posts w f ++ repeat (fresh_shard (w_now w)) m.
Proof.
  intros Hsc. unfold apply_cycle. cbn [w_shards]. destruct scales as [|x r].
  - exists 0%nat. symmetry. apply app_nil_r.
  - eexists. apply rescale_grows. rewrite zip_length. apply Hsc, last_in. discriminate.
Qed.

Definition scrape_result_of (tru : amap truth) (h : N) : scrape_result :=
  let t := truth_of tru h in if tr_healthy t then ScrOk (tr_series t) (tr_total t) else ScrFail.

(* a scrape round of a shard is a scrape round of its sidecar *)
Lemma scrape_shard_sc tru n s :
  ws_sc (scrape_shard tru n s) = scrape_round (scrape_result_of tru) n (sc_status (ws_sc s)) (ws_sc s).
Proof. reflexivity. Qed.

Lemma scrape_shard_inv (R : sidecar -> Prop) tru n s :
  (forall sc h, R sc -> R (do_scrape sc h (scrape_result_of tru h) false)) -> R (ws_sc s) -> R (ws_sc (scrape_shard tru n s)).
Proof. intros Hstep H. rewrite scrape_shard_sc. apply scrape_round_inv; auto. Qed.

(* every step treats the shards one by one, and each through sidecar operations only: what those keep, the world keeps *)
Section OpsKeep.
Variables (tru : amap truth) (U : assignment -> Prop) (R : sidecar -> Prop).
Hypothesis K : ops_keep U (scrape_result_of tru) R.
Let P (s : wshard) : Prop := R (ws_sc s).
Let Q (p : option (list ptarget)) : Prop := forall body, p = Some body -> U (request_of tru body).

Lemma keep_rescale now want l : Forall P l -> Forall P (rescale now want l).
Proof.
  intros Hl. unfold rescale. destruct (Nat.leb _ _).
  - rewrite <- (firstn_skipn (Z.to_nat want) l) in Hl. now apply Forall_app in Hl.
  - apply Forall_app. split; [exact Hl|]. apply Forall_forall. intros s Hin. apply repeat_spec in Hin. subst s.
    apply (ok_start _ _ _ K).
Qed.

Lemma keep_zip_posts w f : forall l k posts, Forall P l -> Forall Q posts -> Forall P (zip_posts tru k l posts w f).
Proof.
  induction l as [|s r IH]; intros k posts Hl Hp; simpl; [constructor|].
  inversion Hl as [|? ? Hs Hr]; subst. constructor.
  - unfold P. apply after_cycle_sc_inv; [exact Hs|]. intros body E. apply (ok_update _ _ _ K); [exact Hs|].
    destruct Hp as [|p t Hp _]; [discriminate | now apply Hp].
  - apply IH; [exact Hr|]. destruct Hp; [constructor | assumption].
Qed.

Lemma keep_apply_cycle w f posts scales :
  Forall P (w_shards w) -> Forall Q posts -> Forall P (w_shards (apply_cycle tru w f posts scales)).
Proof.
  intros Hw Hp. unfold apply_cycle. cbn [w_shards]. pose proof (keep_zip_posts w f _ 0%nat _ Hw Hp) as Hz.
  destruct scales; [exact Hz | now apply keep_rescale].
Qed.

Lemma keep_lstep_det w st : Forall P (w_shards w) -> Forall P (w_shards (lstep_det tru w st)).
Proof.
  intros Hw. destruct st as [f|n|dt|k|hs]; cbn [lstep_det w_shards]; try exact Hw.
  - apply Forall_map. revert Hw. apply Forall_impl. intros s. unfold P. apply scrape_shard_inv, (ok_scrape _ _ _ K).
  - apply Forall_upd; [exact Hw|]. intros s. apply (ok_restart _ _ _ K).
Qed.
End OpsKeep.

Theorem wwf_apply_cycle tru w f posts scales :
  wwf w -> Forall (fun p => forall body, p = Some body -> body_unique body) posts -> wwf (apply_cycle tru w f posts scales).
Proof.
  intros Hw Hp. apply (keep_apply_cycle tru _ wf (wf_ops _)); [exact Hw|].
  revert Hp. apply Forall_impl. intros p H body E. apply request_unique, (H body E).
Qed.

Theorem wwf_step tru w st : wwf w -> wwf (lstep_det tru w st).
Proof. apply (keep_lstep_det tru _ wf (wf_ops _)). Qed.

Lemma lstep_det_length tru w st : length (w_shards (lstep_det tru w st)) = length (w_shards w).
Proof. destruct st; cbn [lstep_det w_shards]; [reflexivity|apply map_length|reflexivity|apply upd_length|reflexivity]. Qed.

Lemma nth_lstep_det tru w st k d : (k < length (w_shards w))%nat ->
  nth k (w_shards (lstep_det tru w st)) d =
  match st with
  | LScrapeAll n => scrape_shard tru n (nth k (w_shards w) d)
  | LRestart j => if Nat.eqb j k then {| ws_sc := do_restart (ws_sc (nth k (w_shards w) d)) (w_now w); ws_hash_ok := false |}
                  else nth k (w_shards w) d
  | _ => nth k (w_shards w) d
  end.
Proof.
  intros Hk. destruct st as [f|n|dt|j|hs]; cbn [lstep_det w_shards]; try reflexivity.
  - rewrite (nth_indep _ d (scrape_shard tru n d)) by now rewrite map_length. apply map_nth.
  - destruct (Nat.eqb_spec j k) as [->|Hne]; [now rewrite nth_upd_eq | now apply nth_upd_neq].
Qed.

Lemma number_from_length {A} (l : list A) a : length (number_from a l) = length l.
Proof. revert a. induction l as [|x r IH]; intros a; simpl; [reflexivity|]. now rewrite IH. Qed.

Lemma nth_inputs w f d' : forall l a k d, (k < length l)%nat ->
  nth k (map (fun ks => shard_input w f (fst ks) (snd ks)) (number_from a l)) d = shard_input w f (a + k) (nth k l d').
Proof.
  induction l as [|x r IH]; intros a k d Hk; [simpl in Hk; lia|].
  destruct k as [|k]; simpl.
  - now rewrite Nat.add_0_r.
  - rewrite IH by (simpl in Hk; lia). f_equal. lia.
Qed.

Lemma inputs_length tru w f : length (i_shards (cycle_input tru w f)) = length (w_shards w).
Proof. unfold cycle_input. cbn [i_shards]. now rewrite map_length, number_from_length. Qed.

Lemma shard_at_world tru w f k d : (k < length (w_shards w))%nat ->
  shard_at (cycle_input tru w f) k = shard_input w f k (nth k (w_shards w) d).
Proof. intros Hk. unfold shard_at, cycle_input. cbn [i_shards]. now rewrite (nth_inputs w f d). Qed.

Lemma reported_world tru w f k d :
  reported (cycle_input tru w f) k =
  if (k <? length (w_shards w))%nat && negb (hit (f_not_ready f) k) && negb (hit (f_unreachable f) k)
  then map (fun kv => (fst kv, cstat_of (snd kv))) (sc_status (ws_sc (nth k (w_shards w) d))) else [].
Proof.
  unfold reported. destruct (Nat.ltb_spec k (length (w_shards w))) as [Hk|Hk].
  - rewrite (shard_at_world tru w f k d Hk). unfold cache_of, shard_input. cbn [sh_ready sh_status andb].
    destruct (negb (hit (f_not_ready f) k)), (negb (hit (f_unreachable f) k)); reflexivity.
  - unfold shard_at. rewrite nth_overflow by (now rewrite inputs_length). reflexivity.
Qed.

Lemma insync_world tru w f k : insync (cycle_input tru w f) k = true ->
  (k < length (w_shards w))%nat /\ hit (f_not_ready f) k = false /\ hit (f_unreachable f) k = false.
Proof.
  intros Hs. assert (Hk : (k < length (w_shards w))%nat).
  { rewrite <- (inputs_length tru w f), <- (map_length (fun sh => fst (get_info sh))). apply lt_of_ok. now rewrite nth_si_p0. }
  split; [exact Hk|].
  unfold insync, info_at in Hs. rewrite (shard_at_world tru w f k (fresh_shard 0) Hk) in Hs.
  unfold get_info, shard_input in Hs. cbn [sh_ready sh_status] in Hs.
  destruct (hit (f_not_ready f) k); [discriminate|]. destruct (hit (f_unreachable f) k); [discriminate|]. now split.
Qed.

Lemma reported_insync tru w f k d : insync (cycle_input tru w f) k = true ->
  reported (cycle_input tru w f) k = map (fun kv => (fst kv, cstat_of (snd kv))) (sc_status (ws_sc (nth k (w_shards w) d))).
Proof.
  intros Hs. destruct (insync_world tru w f k Hs) as (Hk & Hr & Hu). apply Nat.ltb_lt in Hk.
  now rewrite (reported_world tru w f k d), Hk, Hr, Hu.
Qed.

Lemma insync_nofaults tru w k : (k < length (w_shards w))%nat -> insync (cycle_input tru w no_faults) k = true.
Proof.
  intros Hk. unfold insync, info_at. rewrite (shard_at_world tru w no_faults k (fresh_shard 0) Hk).
  unfold get_info, shard_input.
  cbn [sh_ready sh_status sh_rt1 sh_push_ok sh_rt2 no_faults f_not_ready f_unreachable f_stale hit existsb negb andb].
  unfold runtime_of. cbn [r_hash_ok]. destruct (ws_hash_ok _); reflexivity.
Qed.

Lemma nodup_reports_world tru w f : wwf w -> NoDupReports (cycle_input tru w f).
Proof.
  intros Hw k. rewrite (reported_world tru w f k (fresh_shard 0)). destruct (_ && _); [|constructor].
  rewrite (akeys_map (fun _ => cstat_of)). apply wf_keys_nodup. apply (Forall_nth_d _ _ _ _ Hw), wf_start.
Qed.

Lemma active_keys_world tru w f : akeys (i_active (cycle_input tru w f)) = w_active w.
Proof. unfold cycle_input, akeys. cbn [i_active]. rewrite map_map. apply map_id. Qed.

Lemma active_world tru w f h : In h (w_active w) -> is_active (i_active (cycle_input tru w f)) h = true.
Proof. intros H. apply amem_keys. now rewrite active_keys_world. Qed.

Lemma explore_world tru w f h :
  afind h (i_explore (cycle_input tru w f)) =
  if existsb (N.eqb h) (w_active w)
  then Some (if tr_healthy (truth_of tru h)
             then {| c_state := Normal; c_health := Good; c_series := tr_series (truth_of tru h);
                     c_total := tr_total (truth_of tru h); c_times := 0 |}
             else {| c_state := Normal; c_health := Bad; c_series := 0; c_total := 0; c_times := 0 |})
  else None.
Proof. exact (afind_map_fun _ h (w_active w)). Qed.

Theorem place_or_grow o i s0 h :
  let S := run_stages o i s0 in
  0 < max_proc o -> 0 <= max_head o ->
  sane (global_status (i_explore i) (st_p0 S)) ->
  In h (akeys (i_active i)) ->
  existsb (fun si => amem h (scr_of si)) (st_p2 S) = false ->          (* nobody plans it when assignment starts *)
  c_health (global_status (i_explore i) (st_p0 S) h) = Good ->
  is_too_big o (global_status (i_explore i) (st_p0 S) h) = false ->
  0 < c_series (global_status (i_explore i) (st_p0 S) h) \/ 0 < c_total (global_status (i_explore i) (st_p0 S) h) ->
  Forall (fun s => si_ok s = true) (st_p3 S) ->                        (* every shard is in sync *)
  Z.of_nat (length (st_p3 S)) < max_shard o ->
  first_event_for h (st_ev_b S) \/ Z.of_nat (length (st_p3 S)) + 1 <= clamp o (st_scale S).
Proof.
  cbn zeta. intros Hp Hh Hsane Hin Hsc Hgood Hbig Hsize Hok Hmax.
  pose proof (stages_need o i s0) as En. pose proof (stages_scale o i s0) as Esc. cbn zeta in En, Esc.
  rewrite stages_ev_b. rewrite stages_p2 in Hsc.
  pose proof (alleviate_need_nonneg o (st_p1 (run_stages o i s0)) s0) as [Ha1 Ha2].
  destruct (assign_places_or_needs o (i_active i) _ _ (snd (alleviate o (st_p1 (run_stages o i s0)) s0)) h
              Hsane Hin Hsc Hgood Hbig) as [Hd|[Hd1 Hd2]]; rewrite <- stages_p2 in *; [now left|right].
  change (assign o (i_active i) _ (st_p2 (run_stages o i s0)) _) with (assign_of o i s0) in Hd1, Hd2.
  (* both parts of the needed space are sums of non-negative terms, and one of them contains the size of h *)
  set (S := run_stages o i s0) in *. set (g := global_status (i_explore i) (st_p0 S)) in *.
  assert (Hn : 0 <= fst (st_need S) /\ 0 <= snd (st_need S) /\ (0 < fst (st_need S) \/ 0 < snd (st_need S))).
  { rewrite En. cbn [fst snd]. destruct (Hsane h). lia. }
  clear En Ha1 Ha2 Hd1 Hd2. destruct Hn as (Hn1 & Hn2 & Hn3).
  assert (Hnz : ((fst (st_need S) =? 0) && (snd (st_need S) =? 0)) = false).
  { apply andb_false_iff. destruct Hn3; [left|right]; apply Z.eqb_neq; lia. }
  rewrite Esc. unfold tail_of. rewrite Hnz. cbn [negb fst].
  rewrite clamp_spec. apply Z.max_le_iff. right. apply Z.min_glb; [lia|].
  now apply scale_up_grows.
Qed.
