(* Proofs/ExploreProofs.v — C20: accounting invariant of the explorer LTS (no lost retry, no duplicate work per
   entry), the one-shot trigger, silence after success, and the estimate handed to the coordinator. *)
From KV Require Import Base.Util Base.AMap Model.Coordinator Model.Explore.
Local Open Scope list_scope.

Definition cnt (id : N) (l : list N) : nat := count_occ N.eq_dec l id.
(* how often the object is somewhere between "asked for" and "probe finished for good" *)
Definition pend (s : xstate) (id : N) : nat := cnt id (x_queue s) + cnt id (x_inflight s) + cnt id (x_timers s).
(* asked for, no successful probe yet *)
Definition live (e : entry) : bool := e_exploring e && negb (health_eqb (e_health e) Good).

Lemma cnt_cons i x l : cnt i (x :: l) = ((if N.eqb i x then 1 else 0) + cnt i l)%nat.
Proof. destruct (N.eqb_spec i x) as [->|H]; [now apply count_occ_cons_eq | apply count_occ_cons_neq; congruence]. Qed.

Lemma cnt_snoc i x l : cnt i (l ++ [x]) = (cnt i l + if N.eqb i x then 1 else 0)%nat.
Proof. unfold cnt. rewrite count_occ_app. f_equal. fold (cnt i [x]). rewrite cnt_cons. apply Nat.add_0_r. Qed.

Lemma cnt_remove_first i x l : cnt i (remove_first x l) = (cnt i l - if N.eqb i x then 1 else 0)%nat.
Proof.
  induction l as [|y r IH]; [reflexivity|]. cbn [remove_first]. destruct (N.eqb_spec y x) as [->|Hne].
  - rewrite cnt_cons. lia.
  - rewrite !cnt_cons, IH. destruct (N.eqb_spec i x), (N.eqb_spec i y); [congruence|lia..].
Qed.

Lemma cnt_in id l : (0 < cnt id l)%nat <-> In id l.
Proof. unfold cnt. symmetry. apply count_occ_In. Qed.

Record Inv (s : xstate) : Prop := {
  inv_le : forall id, (pend s id <= 1)%nat;
  inv_live : forall id, pend s id = 1%nat -> live (obj s id) = true;
  inv_tracked : forall h id, afind h (x_table s) = Some id -> live (obj s id) = true -> pend s id = 1%nat;
  inv_hash : forall h id, afind h (x_table s) = Some id -> e_hash (obj s id) = h /\ (id < x_next s)%N;
  inv_fresh : forall id, (x_next s <= id)%N -> pend s id = 0%nat /\ afind id (x_objs s) = None;
  inv_idle : forall id, e_exploring (obj s id) = false -> e_health (obj s id) = Unknown;
  inv_nodup : NoDup (akeys (x_table s));
}.

(* the worker drops a queued object that is no longer the tracked one; everything tracked keeps its place *)
Definition tracked_id (s : xstate) (id : N) : bool :=
  match afind (e_hash (obj s id)) (x_table s) with Some id' => N.eqb id' id | None => false end.

Lemma inv_init w : Inv (x_init w).
Proof.
  constructor; unfold pend; cbn; auto; try discriminate; try constructor.
Qed.

Lemma obj_afind s s' id : afind id (x_objs s') = afind id (x_objs s) -> obj s' id = obj s id.
Proof. unfold obj. now intros ->. Qed.

Lemma obj_same s s' id : x_objs s' = x_objs s -> obj s' id = obj s id.
Proof. intros H. apply obj_afind. now rewrite H. Qed.

Lemma obj_aset s s' id e i : x_objs s' = aset id e (x_objs s) -> obj s' i = if N.eqb i id then e else obj s i.
Proof. unfold obj. intros ->. rewrite afind_aset. now destruct (N.eqb i id). Qed.

Lemma live_exploring e : live e = true -> e_exploring e = true.
Proof. unfold live. intros H. apply andb_true_iff in H. apply H. Qed.

Record InvAt (s : xstate) (id : N) : Prop := {
  at_le : (pend s id <= 1)%nat;
  at_live : pend s id = 1%nat -> live (obj s id) = true;
  at_tracked : forall h, afind h (x_table s) = Some id -> live (obj s id) = true -> pend s id = 1%nat;
  at_hash : forall h, afind h (x_table s) = Some id -> e_hash (obj s id) = h /\ (id < x_next s)%N;
  at_fresh : (x_next s <= id)%N -> pend s id = 0%nat /\ afind id (x_objs s) = None;
  at_idle : e_exploring (obj s id) = false -> e_health (obj s id) = Unknown;
}.

Lemma inv_at s id : Inv s -> InvAt s id.
Proof. intros I. constructor; [apply I | apply I | intros h; apply I | intros h; apply I | apply I | apply I]. Qed.

Lemma inv_of_at s : (forall id, InvAt s id) -> NoDup (akeys (x_table s)) -> Inv s.
Proof.
  intros A Hnd. constructor; [intros id; apply A | intros id; apply A | intros h id; apply A | intros h id; apply A
                              | intros id; apply A | intros id; apply A | exact Hnd].
Qed.

(* InvAt s id looks at: the places of id, its object, the table entries that point to it, the next fresh id *)
Lemma at_ext s s' i :
  (forall h, afind h (x_table s') = Some i -> afind h (x_table s) = Some i) ->
  (x_next s <= x_next s')%N -> pend s' i = pend s i -> afind i (x_objs s') = afind i (x_objs s) ->
  InvAt s i -> InvAt s' i.
Proof.
  intros Ht Hn Hp Ho A. pose proof (obj_afind s s' i Ho) as Hobj.
  constructor; rewrite ?Hp, ?Hobj, ?Ho.
  - apply A.
  - apply A.
  - intros h H. exact (at_tracked _ _ A h (Ht h H)).
  - intros h H. destruct (at_hash _ _ A h (Ht h H)) as [Hh Hl]. split; [exact Hh | exact (N.lt_le_trans _ _ _ Hl Hn)].
  - intros H. apply A. exact (N.le_trans _ _ _ Hn H).
  - apply A.
Qed.

(* a step that moves no object and changes none (the table may shrink) *)
Lemma inv_same s s' : Inv s ->
  (forall h i, afind h (x_table s') = Some i -> afind h (x_table s) = Some i) -> NoDup (akeys (x_table s')) ->
  x_next s' = x_next s -> (forall i, pend s' i = pend s i) -> x_objs s' = x_objs s -> Inv s'.
Proof.
  intros I Ht Hnd Hn Hp Ho. apply inv_of_at; [|exact Hnd].
  intros i. apply (at_ext s); [intros h; apply Ht | rewrite Hn; lia | apply Hp | now rewrite Ho | now apply inv_at].
Qed.

Lemma pend_pos s id : Inv s -> (0 < pend s id)%nat ->
  pend s id = 1%nat /\ live (obj s id) = true /\ (id < x_next s)%N.
Proof.
  intros I H. assert (H1 : pend s id = 1%nat) by (pose proof (inv_le s I id); lia).
  split; [exact H1|]. split; [now apply I|].
  destruct (N.lt_ge_cases id (x_next s)) as [|Hge]; [assumption|]. destruct (inv_fresh s I id Hge). lia.
Qed.

Lemma pend_zero s id : Inv s -> live (obj s id) = false -> pend s id = 0%nat.
Proof.
  intros I Hl. pose proof (inv_le s I id). destruct (pend s id) as [|[|n]] eqn:E; [reflexivity| |lia].
  rewrite (inv_live s I id E) in Hl. discriminate.
Qed.

Lemma pend_zero_not_live s id : Inv s -> live (obj s id) = false -> (forall h, afind h (x_table s) = Some id -> True) -> pend s id <> 1%nat.
Proof. intros I Hl _. rewrite (pend_zero s id I Hl). discriminate. Qed.

Lemma tracked_of_table s h id : Inv s -> afind h (x_table s) = Some id -> tracked_id s id = true.
Proof. intros I Ht. unfold tracked_id. destruct (inv_hash s I h id Ht) as [-> _]. rewrite Ht. apply N.eqb_refl. Qed.

(* a step that concerns one known object, which afterwards is in one place (b) or in none: everything else is as before
   and its hash is kept *)
Lemma inv_known s s' id (b : bool) : Inv s -> x_table s' = x_table s -> x_next s' = x_next s ->
  (forall i, pend s' i = if N.eqb i id then Nat.b2n b else pend s i) ->
  (forall i, i <> id -> afind i (x_objs s') = afind i (x_objs s)) ->
  (id < x_next s)%N -> e_hash (obj s' id) = e_hash (obj s id) ->
  (b = true -> live (obj s' id) = true) ->
  (tracked_id s id = true -> live (obj s' id) = true -> b = true) ->
  (e_exploring (obj s' id) = false -> e_health (obj s' id) = Unknown) -> Inv s'.
Proof.
  intros I Ht Hn Hp Ho Hlt Hh Hlv Htr Hid. apply inv_of_at; [|rewrite Ht; apply I].
  intros i. generalize (Hp i). destruct (N.eqb_spec i id) as [->|Hne]; intros Hpi.
  - constructor; rewrite ?Ht, ?Hn, ?Hpi.
    + destruct b; cbn; lia.
    + destruct b; [auto|discriminate].
    + intros h H Hl. now rewrite (Htr (tracked_of_table s h id I H) Hl).
    + intros h H. split; [rewrite Hh; apply (inv_hash s I h id H) | exact Hlt].
    + intros Hge. destruct (N.lt_irrefl id (N.lt_le_trans _ _ _ Hlt Hge)).
    + exact Hid.
  - apply (at_ext s); [now rewrite Ht | rewrite Hn; lia | exact Hpi | exact (Ho i Hne) | now apply inv_at].
Qed.

Lemma inv_dispatch fuel : forall s, Inv s -> Inv (dispatch fuel s).
Proof.
  induction fuel as [|f IH]; intros s I; cbn [dispatch]; [exact I|].
  destruct (x_queue s) as [|id rest] eqn:Eq; [exact I|].
  destruct (Nat.ltb (length (x_inflight s)) (x_workers s)); [|exact I].
  assert (Hq : forall i, cnt i (x_queue s) = ((if N.eqb i id then 1 else 0) + cnt i rest)%nat)
    by (intros i; rewrite Eq; apply cnt_cons).
  destruct (pend_pos s id I) as (H1 & Hl & Hlt). { unfold pend. rewrite Hq, N.eqb_refl. lia. }
  fold (tracked_id s id). destruct (tracked_id s id) eqn:Etr; [destruct (existsb _ (x_info s))|]; apply IH.
  - (* a worker takes the head of the queue and starts its probe *)
    apply (inv_known s _ id true I); try reflexivity; auto; [|apply I].
    intros i. unfold pend in *. cbn [x_queue x_inflight x_timers]. rewrite cnt_snoc. specialize (Hq i).
    destruct (N.eqb_spec i id); subst; cbn [Nat.b2n] in *; lia.
  - (* no scrape info for its job: failed at once, retry armed *)
    set (e' := Build_entry _ _ _ _ _ _ _ _). set (s' := Build_xstate _ _ _ _ _ _ _ _ _).
    assert (Ho : obj s' id = e') by now rewrite (obj_aset s s' id e' id eq_refl), N.eqb_refl.
    assert (Hx : e_exploring e' = true) by exact (live_exploring _ Hl).
    apply (inv_known s s' id true I); try reflexivity; rewrite ?Ho, ?Hx; auto; try discriminate.
    + intros i. unfold pend, s' in *. cbn [x_queue x_inflight x_timers]. rewrite cnt_snoc. specialize (Hq i).
      destruct (N.eqb_spec i id); subst; cbn [Nat.b2n] in *; lia.
    + intros i Hne. apply afind_aset_neq. congruence.
    + intros _. unfold live. now rewrite Hx.
  - (* no longer the tracked object: dropped *)
    apply (inv_known s _ id false I); try reflexivity; auto; try discriminate.
    + intros i. unfold pend in *. cbn [x_queue x_inflight x_timers]. specialize (Hq i).
      destruct (N.eqb_spec i id); subst; cbn [Nat.b2n] in *; lia.
    + now rewrite Etr.
    + apply I.
Qed.

Lemma inv_get s h : Inv s -> Inv (do_get s h).
Proof.
  intros I. unfold do_get. destruct (afind h (x_table s)) as [id|] eqn:Et; [|assumption].
  destruct (e_exploring (obj s id)) eqn:Ee; [assumption|]. cbv zeta.
  assert (Hp0 : pend s id = 0%nat) by (apply (pend_zero s id I); unfold live; now rewrite Ee).
  destruct (inv_hash s I h id Et) as [_ Hlt].
  set (e' := Build_entry _ _ _ _ _ _ _ _). set (s' := Build_xstate _ _ _ _ _ _ _ _ _).
  assert (Ho : obj s' id = e') by now rewrite (obj_aset s s' id e' id eq_refl), N.eqb_refl.
  apply (inv_known s s' id true I); try reflexivity; rewrite ?Ho; auto; try discriminate.
  - intros i. unfold pend, s' in *. cbn [x_queue x_inflight x_timers set_obj]. rewrite cnt_snoc.
    destruct (N.eqb_spec i id); subst; cbn [Nat.b2n]; lia.
  - intros i Hne. apply afind_aset_neq. congruence.
  - intros _. unfold live, e'. cbn [e_exploring e_health]. now rewrite (inv_idle s I id Ee).
Qed.

(* what the visits of one UpdateTargets have done so far: no object moved, old objects untouched, new ones idle *)
Record UpdInv (s acc : xstate) : Prop := {
  ui_pend : forall id, pend acc id = pend s id;
  ui_next : (x_next s <= x_next acc)%N;
  ui_objs_old : forall id, (id < x_next s)%N -> afind id (x_objs acc) = afind id (x_objs s);
  ui_objs_none : forall id, (x_next acc <= id)%N -> afind id (x_objs acc) = None;
  ui_objs_new : forall id, (x_next s <= id < x_next acc)%N -> e_exploring (obj acc id) = false /\ e_health (obj acc id) = Unknown;
  ui_table : forall h id, afind h (x_table acc) = Some id ->
             afind h (x_table s) = Some id \/ ((x_next s <= id < x_next acc)%N /\ e_hash (obj acc id) = h);
  ui_nodup : NoDup (akeys (x_table acc));
}.

Lemma upd_visit_inv s acc jh : UpdInv s acc -> UpdInv s (update_visit (x_table s) acc jh).
Proof.
  intros U. destruct jh as [job h]. unfold update_visit. pose proof (ui_next _ _ U) as Hn.
  destruct (afind h (x_table s)) as [id|] eqn:Eo; constructor; cbn [x_next x_objs x_table];
    try apply NoDup_akeys_aset; try apply U.
  - intros h' id'. rewrite afind_aset. destruct (N.eqb_spec h' h) as [->|]; [|apply U]. intros [= <-]. now left.
  - lia.
  - intros id Hlt. rewrite afind_aset_neq by lia. now apply U.
  - intros id Hge. rewrite afind_aset_neq by lia. apply U. lia.
  - intros id Hr. erewrite (obj_aset acc) by reflexivity.
    destruct (N.eqb_spec id (x_next acc)); [now cbn|]. apply U. lia.
  - intros h' id'. rewrite afind_aset. destruct (N.eqb_spec h' h) as [->|].
    + intros [= <-]. right. split; [lia|]. erewrite (obj_aset acc) by reflexivity. now rewrite N.eqb_refl.
    + intros H'. destruct (ui_table _ _ U h' id' H') as [A|[A B]]; [now left|]. right. split; [lia|].
      erewrite (obj_aset acc) by reflexivity. destruct (N.eqb_spec id' (x_next acc)); [lia|exact B].
Qed.

Lemma inv_update s jobs : Inv s -> Inv (do_update s jobs).
Proof.
  intros I. unfold do_update.
  set (s00 := Build_xstate _ _ _ _ _ _ _ _ _).
  assert (U : UpdInv s (fold_left (update_visit (x_table s)) (flat_map (fun jl => map (fun h => (fst jl, h)) (snd jl)) jobs) s00)).
  { apply fold_left_inv; [|intros a b Ha; now apply upd_visit_inv].
    constructor; unfold s00; cbn [x_next x_objs x_table]; try reflexivity.
    - intros id Hge. apply (inv_fresh s I id Hge).
    - intros id Hr. lia.
    - intros h id H. discriminate.
    - constructor. }
  set (r := fold_left _ _ s00) in *. clearbody r. clear s00.
  apply inv_of_at; [|apply U]. intros id. destruct (N.lt_ge_cases id (x_next s)) as [Hlt|Hge].
  - (* an object that was there before *)
    apply (at_ext s); [| apply U | apply U | now apply U | now apply inv_at].
    intros h Ht. destruct (ui_table _ _ U h id Ht) as [A|[A _]]; [exact A|lia].
  - (* an object made by this update, or none *)
    assert (Hp0 : pend r id = 0%nat) by (rewrite (ui_pend _ _ U); now apply (inv_fresh s I id)).
    assert (Hi : e_exploring (obj r id) = false /\ e_health (obj r id) = Unknown).
    { destruct (N.lt_ge_cases id (x_next r)) as [Hl2|Hg2]; [apply (ui_objs_new _ _ U id); lia|].
      unfold obj. now rewrite (ui_objs_none _ _ U id Hg2). }
    constructor; rewrite ?Hp0.
    + lia.
    + discriminate.
    + intros h _. unfold live. now rewrite (proj1 Hi).
    + intros h Ht. destruct (ui_table _ _ U h id Ht) as [A|[A B]]; [|split; [exact B|lia]].
      destruct (inv_hash s I h id A). lia.
    + intros Hg. split; [reflexivity | now apply (ui_objs_none _ _ U)].
    + intros _. apply Hi.
Qed.

Lemma inv_apply s jobs : Inv s -> Inv (do_apply s jobs).
Proof.
  intros I. apply (inv_same s _ I); try reflexivity; unfold do_apply; cbn [x_table].
  - intros h i H. now apply afind_filter_iff in H; [|apply I].
  - apply NoDup_akeys_filter, I.
Qed.

Lemma inv_done s h r : Inv s -> Inv (do_done s h r).
Proof.
  intros I. unfold do_done.
  destruct (find (fun id => N.eqb (e_hash (obj s id)) h) (x_inflight s)) as [id|] eqn:Ef; [|assumption].
  apply find_some in Ef. destruct Ef as [Hin _]. apply cnt_in in Hin.
  destruct (pend_pos s id I) as (H1 & Hl & Hlt); [unfold pend; lia|].
  unfold finish_probe. cbv zeta.
  set (e' := match r with POk _ _ => _ | PFail => _ end). set (s' := Build_xstate _ _ _ _ _ _ _ _ _).
  assert (Ho : obj s' id = e') by now rewrite (obj_aset s s' id e' id eq_refl), N.eqb_refl.
  set (b := match r with PFail => true | POk _ _ => false end).
  assert (He : e_exploring e' = true /\ e_hash e' = e_hash (obj s id) /\ live e' = b).
  { unfold e', live, b. destruct r; cbn; rewrite ?(live_exploring _ Hl), ?andb_false_r; auto. }
  destruct He as (Hx & Hh & Hlv).
  apply (inv_known s s' id b I); try reflexivity; rewrite ?Ho, ?Hlv, ?Hx; auto; try discriminate.
  - intros i. unfold pend, b, s' in *. cbn [x_queue x_inflight x_timers set_obj]. rewrite cnt_remove_first.
    destruct r; rewrite ?cnt_snoc; destruct (N.eqb_spec i id); subst; cbn [Nat.b2n]; lia.
  - intros i Hne. apply afind_aset_neq. congruence.
Qed.

Lemma inv_fire s id : Inv s -> Inv (fire s id).
Proof.
  intros I. unfold fire. destruct (existsb (N.eqb id) (x_timers s)) eqn:Eex; cbn [negb]; [|assumption].
  apply existsb_eqb_in, cnt_in in Eex.
  destruct (pend_pos s id I) as (H1 & Hl & Hlt); [unfold pend; lia|].
  fold (tracked_id s id).
  apply (inv_known s _ id (tracked_id s id) I); try reflexivity; auto; [|apply I].
  intros i. unfold pend in *. cbn [x_queue x_inflight x_timers]. rewrite cnt_remove_first.
  destruct (tracked_id s id); rewrite ?cnt_snoc; destruct (N.eqb_spec i id); subst; cbn [Nat.b2n]; lia.
Qed.

Lemma inv_timers s : Inv s -> Inv (do_timers s).
Proof. intros I. unfold do_timers. apply fold_left_inv; [exact I|]. intros a b. apply inv_fire. Qed.

Lemma inv_step s op : Inv s -> Inv (x_step s op).
Proof.
  intros I. unfold x_step, settle. apply inv_dispatch. destruct op.
  - now apply inv_get. - now apply inv_update. - now apply inv_apply. - now apply inv_done. - now apply inv_timers.
  - (* the scrape manager was reloaded: nothing of the explorer's own state moves *)
    apply (inv_same s _ I); try reflexivity; [auto | apply I].
Qed.

Theorem inv_reachable w ops : Inv (x_run (x_init w) ops).
Proof. unfold x_run. apply fold_left_inv; [apply inv_init|]. intros a b. apply inv_step. Qed.

(* no lost retry, no duplicate work: a tracked entry that was asked for and has no successful probe yet is in exactly
   one of: the queue, a worker, a pending retry timer *)
Theorem accounted w ops h id :
  let s := x_run (x_init w) ops in
  afind h (x_table s) = Some id -> e_exploring (obj s id) = true -> e_health (obj s id) <> Good ->
  pend s id = 1%nat.
Proof.
  cbn zeta. intros Ht He Hh. apply (inv_tracked _ (inv_reachable w ops) h id Ht).
  unfold live. rewrite He. destruct (e_health (obj _ id)); try reflexivity. congruence.
Qed.

(* per entry at most one probe in flight *)
Theorem one_in_flight_per_entry w ops id :
  let s := x_run (x_init w) ops in (cnt id (x_inflight s) <= 1)%nat.
Proof. cbn zeta. pose proof (inv_le _ (inv_reachable w ops) id). unfold pend in *. lia. Qed.

(* an entry whose last probe succeeded, or that is not being explored, is nowhere: in no queue, no worker, no timer *)
Theorem quiet_after_success w ops id :
  let s := x_run (x_init w) ops in
  e_health (obj s id) = Good \/ e_exploring (obj s id) = false -> pend s id = 0%nat.
Proof.
  cbn zeta. intros H. apply pend_zero; [apply inv_reachable|]. unfold live.
  destruct H as [H|H]; rewrite H; [apply andb_false_r | reflexivity].
Qed.

(* a probe only ever starts from the queue, the queue only grows by Get (once per entry) and by a retry of a tracked
   entry: the one-shot trigger *)
Theorem get_asks_once s h id :
  afind h (x_table s) = Some id ->
  (e_exploring (obj s id) = false -> x_queue (do_get s h) = x_queue s ++ [id] /\ e_exploring (obj (do_get s h) id) = true) /\
  (e_exploring (obj s id) = true -> do_get s h = s).
Proof.
  intros Ht. unfold do_get. rewrite Ht. split; intros He; rewrite He; [|reflexivity].
  cbn [x_queue set_obj]. split; [reflexivity|]. unfold obj. cbn [x_objs set_obj]. now rewrite afind_aset_eq.
Qed.

(* the estimate: after the first successful probe with counts (scraped, total), Get returns health up, no error,
   series = the Go mean of the one-element window, total = total *)
Theorem estimate_after_success s id scraped total :
  e_window (obj s id) = [] ->
  let s' := finish_probe s id (POk scraped total) in
  e_health (obj s' id) = Good /\ e_err (obj s' id) = false /\ e_total (obj s' id) = total /\
  e_series (obj s' id) = Base.Float64.div_round (0 + scraped) 1.
Proof.
  intros Hw. cbv zeta. unfold finish_probe. cbv zeta. erewrite (obj_aset s) by reflexivity.
  rewrite N.eqb_refl, Hw. cbn. auto.
Qed.

Theorem failed_probe_is_unhealthy s id :
  let s' := finish_probe s id PFail in
  e_health (obj s' id) = Bad /\ e_err (obj s' id) = true /\ In id (x_timers s').
Proof.
  cbv zeta. unfold finish_probe. cbv zeta. erewrite (obj_aset s) by reflexivity.
  rewrite N.eqb_refl. cbn [e_health e_err x_timers]. repeat split. apply in_or_app. right. now left.
Qed.

(* a probe attempt without scrape info for the job (the scrape manager has no client for it) is a failed probe: nothing
   is sent to the target, the entry shows as unhealthy with an error, and its retry timer is armed *)
Theorem noinfo_is_failed_probe s id rest :
  x_queue s = id :: rest -> (length (x_inflight s) < x_workers s)%nat -> tracked_id s id = true ->
  existsb (N.eqb (e_job (obj s id))) (x_info s) = false ->
  let s' := dispatch 1 s in
  e_health (obj s' id) = Bad /\ e_err (obj s' id) = true /\ In id (x_timers s') /\
  x_probes s' = x_probes s /\ x_inflight s' = x_inflight s /\ x_queue s' = rest.
Proof.
  intros Eq Hw Htr Hni. cbv zeta. cbn [dispatch]. rewrite Eq, (proj2 (Nat.ltb_lt _ _) Hw).
  unfold tracked_id in Htr. rewrite Htr, Hni. cbn [dispatch]. erewrite (obj_aset s) by reflexivity.
  rewrite N.eqb_refl. cbn [e_health e_err x_timers x_probes x_inflight x_queue].
  repeat split. apply in_or_app. right. now left.
Qed.
