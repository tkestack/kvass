(* Proofs/CoordCycle.v — what every event of a cycle satisfies (cycle_event_good); C08: the request log of each shard, the
   synchronisation protocol as a decision tree, shards that are not in sync are left alone; C05: the hand-over rule as a
   corollary of CoordC01.taken_justified. *)
From KV Require Import Base.Util Base.AMap Base.Sched Gen.Consts Model.Coordinator Model.CoordCheck Proofs.CoordBasics
  Proofs.CoordC01 Proofs.CoordEvents.
Local Open Scope list_scope.
Local Open Scope Z_scope.

(* the events a cycle reports are those of its stages, cut short when tryScaleUp divides by zero *)
Lemma cycle_events_prefix o i sch :
  let S := run_stages o i (sst_of sch) in
  exists rest, st_ev_a S ++ st_ev_b S ++ st_ev_c S = o_events (cycle o i sch) ++ rest.
Proof.
  cbn zeta. rewrite o_events_cycle. destruct (mode_of _ _ _).
  - eexists. reflexivity.
  - eexists. now rewrite app_assoc.
  - exists []. now rewrite app_nil_r.
Qed.

Lemma cycle_event_good o i sch e :
  In e (o_events (cycle o i sch)) ->
  let S := run_stages o i (sst_of sch) in
  ev_good o (global_status (i_explore i) (st_p0 S)) (not_assignable (i_active i) (st_p2 S)) (st_p1 S) e.
Proof.
  intros H. cbn zeta. pose proof (stages_events_good o i (sst_of sch)) as G. cbn zeta in G.
  destruct (cycle_events_prefix o i sch) as [rest Hrest]. cbn zeta in Hrest. rewrite Hrest in G.
  apply Forall_app in G. destruct G as [G _]. rewrite Forall_forall in G. apply G, H.
Qed.

(* C08: every placement goes to an in-sync shard, different from its source *)
Theorem c08_dest_insync o i sch e :
  In e (o_events (cycle o i sch)) -> insync i (ev_to e) = true /\ ev_from e <> Some (ev_to e).
Proof.
  intros H. pose proof (cycle_event_good o i sch e H) as G. cbn zeta in G.
  split; [|apply G]. rewrite <- (p1_ok o i (sst_of sch)). apply G.
Qed.

Lemma nth_logs0 i k : nth k (map (fun sh => snd (get_info sh)) (i_shards i)) [] = expected_sync_log i k.
Proof. exact (map_nth (fun sh => snd (get_info sh)) (i_shards i) dshard k). Qed.

Lemma log_at_cycle_eq o i sch k :
  log_at (obs_of (cycle o i sch)) k =
  expected_sync_log i k ++
  match mode_of o i (sst_of sch) with
  | MNormal => snd (apply_shard (i_active i) (shard_at i k) (nth_si (final_plan o i sch) k))
  | _ => []
  end.
Proof.
  unfold log_at, obs_of. cbn [ob_logs]. rewrite o_logs_cycle.
  destruct (mode_of _ _ _); rewrite ?app_nil_r; [apply nth_logs0 | apply nth_logs0 |].
  unfold final_plan. rewrite <- nth_applied, <- nth_logs0.
  rewrite (map_nth (fun pr : list req * (option (list ptarget) * list req) => fst pr ++ snd (snd pr)) _ ([], (None, []))).
  rewrite combine_nth; [reflexivity|]. unfold applied. rewrite !map_length, combine_length, stages_len_p4. lia.
Qed.

(* the requests after the synchronisation phase, and the body observed *)
Definition tail_ok (insync : bool) (tail : list req) (post : option (list ptarget)) : Prop :=
  (tail = [] \/ tail = [PostExtra] \/ tail = [PostTargets] \/ tail = [PostTargets; PostExtra]) /\
  (insync = false -> tail = []) /\
  (In PostTargets tail <-> post <> None).

Lemma tail_ok_nil b : tail_ok b [] None.
Proof. split; [now left|]. split; [reflexivity|]. split; [intros [] | intros H; now contradiction H]. Qed.

Lemma apply_shard_tail_ok active sh s f :
  tail_ok (si_ok s) (snd (apply_shard active sh s)) (option_map f (fst (apply_shard active sh s))).
Proof.
  unfold apply_shard. destruct (si_ok s); cbn [negb]; [|apply tail_ok_nil].
  destruct (need_update _ _); [destruct (sh_post_ok sh)|]; cbn [fst snd option_map].
  - split; [auto|]. split; [discriminate|]. split; [discriminate | intros _; now left].
  - split; [auto|]. split; [discriminate|]. split; [discriminate | intros _; now left].
  - split; [auto|]. split; [discriminate|]. split; [intros [H|[]]; discriminate | intros H; now contradiction H].
Qed.

Lemma log_at_cycle o i sch k : (k < length (i_shards i))%nat ->
  let ob := obs_of (cycle o i sch) in
  exists tail, log_at ob k = expected_sync_log i k ++ tail /\
    (tail = [] \/ tail = [PostExtra] \/ tail = [PostTargets] \/ tail = [PostTargets; PostExtra]) /\
    (insync i k = false -> tail = []) /\
    (In PostTargets tail <-> post_at ob k <> None).
Proof.
  intros _. cbn zeta. rewrite log_at_cycle_eq, post_at_cycle_eq. eexists. split; [reflexivity|].
  destruct (mode_of _ _ _); [apply tail_ok_nil | apply tail_ok_nil |].
  rewrite <- (final_ok o i sch k). apply apply_shard_tail_ok.
Qed.

Theorem c08_left_alone o i sch k :
  (k < length (i_shards i))%nat -> insync i k = false ->
  let ob := obs_of (cycle o i sch) in
  log_at ob k = expected_sync_log i k /\ post_at ob k = None /\
  (forall e, In e (o_events (cycle o i sch)) -> ev_to e <> k).
Proof.
  intros Hk Hs. cbn zeta.
  destruct (log_at_cycle o i sch k Hk) as [tail [Hl [_ [Hn Hp]]]]. cbn zeta in *.
  rewrite (Hn Hs) in *. rewrite app_nil_r in Hl. split; [assumption|]. split.
  - destruct (post_at (obs_of (cycle o i sch)) k) eqn:E; [|reflexivity].
    exfalso. destruct Hp as [_ Hp]. apply Hp; discriminate.
  - intros e He Hto. destruct (c08_dest_insync o i sch e He) as [H _]. rewrite Hto in H. congruence.
Qed.

(* the synchronisation protocol as a decision tree over the scripted replies *)
Theorem c08_log_shapes i k :
  let l := expected_sync_log i k in
  (sh_ready (shard_at i k) = false -> l = []) /\
  (l = [] \/ l = [GetStatus] \/ l = [GetStatus; GetRuntime] \/ l = [GetStatus; GetRuntime; PostConfig] \/
   l = [GetStatus; GetRuntime; PostConfig; GetRuntime]).
Proof.
  cbn zeta. unfold expected_sync_log.
  destruct (get_info_view (shard_at i k)) as [R | R | st R | st r1 R | st r1 R | st r1 R | st r1 r2 R]; cbn [snd];
    (split; [intros R'; congruence | auto 6]).
Qed.

Theorem c08_insync_iff i k :
  let sh := shard_at i k in
  insync i k = true <->
  sh_ready sh = true /\ (exists st, sh_status sh = Some st) /\
  ((exists r, sh_rt1 sh = Some r /\ r_hash_ok r = true) \/
   (exists r r2, sh_rt1 sh = Some r /\ r_hash_ok r = false /\ sh_push_ok sh = true /\
                 sh_rt2 sh = Some r2 /\ r_hash_ok r2 = true)).
Proof.
  cbn zeta. unfold insync, info_at.
  destruct (get_info_view (shard_at i k)) as [R | R S | st R S T | st r1 R S T H | st r1 R S T H P | st r1 R S T H P T2 |
                                              st r1 r2 R S T H P T2]; cbn [fst mk_info si_ok].
  - split; [discriminate | intros (R' & _); congruence].
  - split; [discriminate | intros (_ & (st & S') & _); congruence].
  - split; [discriminate | intros (_ & _ & [(r & T' & _) | (r & r2 & T' & _)]); congruence].
  - split; [|reflexivity]. intros _. split; [exact R|]. split; [eauto|]. left. eauto.
  - split; [discriminate | intros (_ & _ & [(r & T' & H') | (r & r2 & _ & _ & P' & _)]); congruence].
  - split; [discriminate | intros (_ & _ & [(r & T' & H') | (r & r2 & _ & _ & _ & T2' & _)]); congruence].
  - split.
    + intros H2. split; [exact R|]. split; [eauto|]. right. exists r1, r2. auto.
    + intros (_ & _ & [(r & T' & H') | (r & r2' & _ & _ & _ & T2' & H2)]); congruence.
Qed.

(* the raw configuration is pushed exactly to reachable shards whose first reported hash differs *)
Theorem c08_push_iff i k :
  let sh := shard_at i k in
  In PostConfig (expected_sync_log i k) <->
  sh_ready sh = true /\ (exists st, sh_status sh = Some st) /\ exists r, sh_rt1 sh = Some r /\ r_hash_ok r = false.
Proof.
  cbn zeta. unfold expected_sync_log.
  destruct (get_info_view (shard_at i k)) as [R | R S | st R S T | st r1 R S T H | st r1 R S T H P | st r1 R S T H P T2 |
                                              st r1 r2 R S T H P T2]; cbn [snd].
  - split; [intros [] | intros (R' & _); congruence].
  - split; [intros [E|[]]; discriminate | intros (_ & (st & S') & _); congruence].
  - split; [intros [E|[E|[]]]; discriminate | intros (_ & _ & r & T' & _); congruence].
  - split; [intros [E|[E|[]]]; discriminate | intros (_ & _ & r & T' & H'); congruence].
  - split; [|intros _; simpl; auto]. intros _. eauto 6.
  - split; [|intros _; simpl; auto]. intros _. eauto 6.
  - split; [|intros _; simpl; auto]. intros _. eauto 6.
Qed.

Lemma minwait_is_3 : min_wait = 3%N.
Proof. reflexivity. Qed.

Theorem c05_handover o i sch k h c :
  NoDupReports i ->
  insync i k = true -> afind h (reported i k) = Some c -> is_active (i_active i) h = true ->
  holds_after i (obs_of (cycle o i sch)) k h = false ->
  (3 <= c_times c)%N /\
  exists k' c', k' <> k /\ insync i k' = true /\ afind h (reported i k') = Some c' /\ (3 <= c_times c')%N /\
                (c_state c = InTransfer /\ c_state c' = Normal \/ c_state c = c_state c').
Proof.
  intros Hnd Hs Hc Hact Hgone. rewrite <- minwait_is_3.
  destruct (taken_justified o i sch k h c Hnd Hc Hact Hgone) as (Ht & k' & c' & Hne & Hs' & Hc' & Ht' & Hst).
  split; [exact Ht|]. exists k', c'. repeat split; try assumption.
  destruct Hst as [Hst|[Hst _]]; [now left | now right].
Qed.
