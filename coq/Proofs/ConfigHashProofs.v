(* Proofs/ConfigHashProofs.v — C16: which edits reach the hash term. *)
From KV Require Import Base.Util Base.Lists Model.ConfigHash.
Local Open Scope list_scope.

Lemma map_replace_eq_iff {A B} (f : A -> B) i x y (l : list A) :
  nth_error l i = Some y -> (map f (replace_nth i x l) = map f l <-> f x = f y).
Proof.
  revert i. induction l as [|z r IH]; intros [|j]; simpl; try discriminate.
  - intros [= ->]. split; congruence.
  - intros H. rewrite <- (IH _ H). split; congruence.
Qed.

Lemma hs_struct name fs l : hs (TStruct name fs) (VStruct l) = HStructT name (hs_fields fs l).
Proof.
  cbn [hs]. f_equal. revert fs. induction l as [|x r IH]; intros [|f fr]; cbn [hs_fields]; try reflexivity.
  destruct (f_vis f); [f_equal|]; apply IH.
Qed.

Lemma fields_iff fs : forall i l f x y,
  nth_error fs i = Some f -> nth_error l i = Some y ->
  (hs_fields fs (replace_nth i x l) = hs_fields fs l <-> f_vis f = false \/ hs (f_ty f) x = hs (f_ty f) y).
Proof.
  induction fs as [|g fr IH]; intros [|j] [|z r] f x y; simpl; try discriminate.
  - intros [= ->] [= ->]. destruct (f_vis f); split; auto.
    + intros [= H]. now right.
    + intros [H|H]; [discriminate | now rewrite H].
  - intros Hf Hy. rewrite <- (IH _ _ _ x _ Hf Hy). destruct (f_vis g); split; congruence.
Qed.

Lemma visible_iff (A : Prop) : true = false \/ A <-> A.
Proof. split; [now intros [|] | now right]. Qed.

(* `down` tests the step, then the type, then the value: one constructor of each survives *)
Lemma up_iff s t v t1 v1 vis y :
  down s t v = Some (t1, v1, vis) -> (hs t (up s v y) = hs t v <-> vis = false \/ hs t1 y = hs t1 v1).
Proof.
  intros H.
  destruct s as [| |i|i|i]; destruct t as [|w|tp|ts|tk tv|name fs|alts|]; try discriminate H;
    destruct v as [| | |v'|l|l|l|k v']; try discriminate H; cbn [down] in H.
  - injection H as <- <- <-. cbn [up hs]. now rewrite visible_iff.
  - injection H as <- <- <-. cbn [up hs]. now rewrite visible_iff.
  - destruct (nth_error l i) as [x|] eqn:E; [|discriminate]. injection H as <- <- <-. cbn [up hs].
    rewrite visible_iff, <- (map_replace_eq_iff (hs ts) i y x l E). split; congruence.
  - destruct (nth_error l i) as [[k x]|] eqn:E; [|discriminate]. injection H as <- <- <-. cbn [up hs]. rewrite E, visible_iff.
    set (F := fun kv : val * val => let (k0, x0) := kv in HSeq [hs tk k0; hs tv x0]).
    transitivity (F (k, y) = F (k, x)); [rewrite <- (map_replace_eq_iff F i (k, y) (k, x) l E) | unfold F]; split; congruence.
  - destruct (nth_error fs i) as [f|] eqn:Ef; [|discriminate]. destruct (nth_error l i) as [x|] eqn:El; [|discriminate].
    injection H as <- <- <-. cbn [up]. rewrite !hs_struct, <- (fields_iff fs i l f y x Ef El). split; congruence.
Qed.

Theorem hs_put_iff p : forall t v t' sub vis x,
  locate p t v = Some (t', sub, vis) -> (hs t (put p t v x) = hs t v <-> vis = false \/ hs t' x = hs t' sub).
Proof.
  induction p as [|s r IH]; intros t v t' sub vis x; cbn [locate put].
  - intros [= <- <- <-]. split; [now right | now intros [|]].
  - destruct (down s t v) as [[[t1 v1] vis1]|] eqn:Ed; [|discriminate].
    destruct (locate r t1 v1) as [[[t2 v2] vis2]|] eqn:El; [|discriminate].
    intros [= <- <- <-]. rewrite (up_iff _ _ _ _ _ _ _ Ed), (IH _ _ _ _ _ x El).
    rewrite andb_false_iff, or_assoc. reflexivity.
Qed.

(* an edit at a position reached through hashed fields only changes the term as soon as it changes the term of
   the edited part *)
Theorem hs_sensitive p : forall t v t' sub x,
  locate p t v = Some (t', sub, true) -> hs t' x <> hs t' sub -> hs t (put p t v x) <> hs t v.
Proof. intros t v t' sub x Hl Hne E. apply (hs_put_iff _ _ _ _ _ _ x Hl) in E. now destruct E. Qed.

(* an edit at a position below a field the traversal skips never changes the term, whatever is put there *)
Theorem hs_blind p : forall t v t' sub x,
  locate p t v = Some (t', sub, false) -> hs t (put p t v x) = hs t v.
Proof. intros t v t' sub x Hl. apply (hs_put_iff _ _ _ _ _ _ x Hl). now left. Qed.

Lemma leaf_str s s' : s <> s' -> hs TStr (VStr s) <> hs TStr (VStr s').
Proof. simpl. congruence. Qed.
Lemma leaf_num w z z' : z <> z' -> hs (TNum w) (VNum z) <> hs (TNum w) (VNum z').
Proof. simpl. congruence. Qed.

Section YInd.
Variable P : ydoc -> Prop.
Hypothesis Hs : forall s, P (YScalar s).
Hypothesis Hq : forall l, Forall P l -> P (YSeq l).
Hypothesis Hm : forall m, Forall (fun kv => P (snd kv)) m -> P (YMap m).
Fixpoint ydoc_ind' (d : ydoc) : P d :=
  match d with
  | YScalar s => Hs s
  | YSeq l => Hq l ((fix go (l : list ydoc) : Forall P l :=
                        match l with [] => Forall_nil _ | x :: r => Forall_cons _ (ydoc_ind' x) (go r) end) l)
  | YMap m => Hm m ((fix go (m : list (string * ydoc)) : Forall (fun kv => P (snd kv)) m :=
                        match m with [] => Forall_nil _ | (k, x) :: r => Forall_cons (k, x) (ydoc_ind' x) (go r) end) m)
  end.
End YInd.

Theorem hs_doc_injective d : forall d', hs_doc d = hs_doc d' -> d = d'.
Proof.
  induction d as [s|l IH|m IH] using ydoc_ind'; intros [s'|l'|m']; simpl; try discriminate.
  - congruence.
  - intros [= H]. f_equal. exact (map_inj_Forall hs_doc l IH l' H).
  - intros [= H]. f_equal. refine (map_inj_Forall _ m _ m' H).
    eapply Forall_impl; [|exact IH]. intros [k x] Hx [k' y] [= -> Hy]. f_equal. now apply Hx.
Qed.

Theorem cfg_term_exact t c d c' d' :
  cfg_term t c d = cfg_term t c' d' <-> hs t c = hs t c' /\ blank_ext d = blank_ext d'.
Proof.
  unfold cfg_term. split.
  - intros [= H1 H2]. split; [assumption|]. now apply hs_doc_injective.
  - intros [-> ->]. reflexivity.
Qed.

Definition set_external (x : ydoc) (g : list (string * ydoc)) : list (string * ydoc) :=
  drop_key "external_labels" g ++ [("external_labels"%string, x)].

Lemma drop_key_set_external x g : drop_key "external_labels" (set_external x g) = drop_key "external_labels" g.
Proof.
  unfold set_external, drop_key. rewrite filter_app. simpl. rewrite app_nil_r. apply filter_absorb. auto.
Qed.

(* setting, changing or deleting global.external_labels never changes the blanked document *)
Theorem external_labels_ignored m1 g x m2 :
  blank_ext (YMap (m1 ++ ("global"%string, YMap (set_external x g)) :: m2)) =
  blank_ext (YMap (m1 ++ ("global"%string, YMap g) :: m2)).
Proof.
  cbn [blank_ext]. rewrite !flat_map_app. cbn [flat_map]. unfold blank_entry. cbn [fst snd].
  now rewrite drop_key_set_external.
Qed.

(* a global section that holds nothing but external labels counts like no global section at all *)
Theorem only_external_labels_is_no_global m1 x m2 :
  blank_ext (YMap (m1 ++ ("global"%string, YMap [("external_labels"%string, x)]) :: m2)) = blank_ext (YMap (m1 ++ m2)).
Proof.
  cbn [blank_ext]. rewrite !flat_map_app. cbn [flat_map]. reflexivity.
Qed.
