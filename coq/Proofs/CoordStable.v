(* Proofs/CoordStable.v — C03: a settled placement is a fixpoint of the coordinator's cycle ("further cycles then change
   nothing"): nothing is collected, recovered, relieved, assigned or scaled, and every target update that is still sent
   repeats the assignment the shard reported.  For every schedule. *)
From KV Require Import Base.Util Base.AMap Base.Sched Gen.Consts Model.Coordinator Model.CoordCheck Proofs.CoordBasics
  Proofs.CoordEvents Proofs.CoordC01.
From Coq Require Import Permutation.
Local Open Scope list_scope.
Local Open Scope Z_scope.

Record settled_plan (active : list (N * N)) (p : plan) : Prop := {
  sp_ok : forall k, (k < length p)%nat -> si_ok (nth_si p k) = true /\ si_scr (nth_si p k) = Some (scr_of (nth_si p k));
  sp_entries : forall k kv, In kv (scr_of (nth_si p k)) -> is_active active (fst kv) = true /\ c_state (snd kv) = Normal;
  sp_single : forall k j h, k <> j -> In h (akeys (scr_of (nth_si p k))) -> afind h (scr_of (nth_si p j)) = None;
}.

Lemma gc_settled o active p : settled_plan active p -> gc o active p = p.
Proof.
  intros [Hok Hent Hsing]. unfold gc. apply fold_left_same. intros k Hk. apply In_indices in Hk.
  unfold gc_shard. destruct (Hok k Hk) as [-> Hscr]. apply (upd_same k _ p dflt). rewrite <- nth_si_eq.
  rewrite filter_all; [now apply set_scr_same|].
  intros [h tar] Hin. cbn [fst snd]. destruct (gc_keep o active p k h tar) eqn:E; [reflexivity|exfalso].
  destruct (Hent k (h, tar) Hin) as [Hact _]. cbn [fst] in Hact.
  (* a discovered target is only collected against a copy on another shard *)
  apply gc_keep_false_iff in E. destruct E as [E|(_ & j & c' & Hne & _ & Hf & _)]; [congruence|].
  rewrite (Hsing k j h) in Hf; [discriminate|congruence|]. apply in_map_iff. now exists (h, tar).
Qed.

Lemma recover_settled active p : settled_plan active p -> recover p = p.
Proof.
  intros [Hok Hent _]. apply (nth_ext _ _ dflt dflt); [apply recover_length|]. rewrite recover_length. intros k Hk.
  change (nth_si (recover p) k = nth_si p k). rewrite nth_recover. unfold recover_shard. destruct (Hok k Hk) as [-> Hscr].
  rewrite map_same; [now apply set_scr_same|].
  intros kv Hkv. destruct (Hent k kv Hkv) as [_ ->]. reflexivity.
Qed.

Definition calm (o : opts) (p : plan) : Prop :=
  disable_alleviate o = true \/
  forall k, (k < length p)%nat ->
    (series_with_rate (max_proc o) proc_trigger_rate <=? si_proc (nth_si p k)) = false /\
    (max_head o = 0 \/ head_threshold o (si_head (nth_si p k)) = None).

Lemma alleviate_calm o p s : calm o p -> alleviate o p s = ((p, (0, 0), []), s).
Proof.
  intros [Hd|Hc]; unfold alleviate; [now rewrite Hd|]. destruct (disable_alleviate o); [reflexivity|].
  set (st0 := {| ps_plan := p; ps_need := 0; ps_events := []; ps_sst := s |}).
  assert (H1 : fold_left (proc_pass_step o) (indices p) st0 = st0).
  { apply fold_left_same. intros k Hk. apply In_indices in Hk. unfold proc_pass_step. cbn [ps_plan st0].
    destruct (Hc k Hk) as [-> _]. now rewrite andb_false_r. }
  rewrite H1. cbn [ps_plan ps_need ps_events ps_sst st0].
  destruct (Z.eqb_spec (max_head o) 0) as [|Hh]; [reflexivity|].
  fold st0.
  assert (H2 : fold_left (head_pass_step o) (indices p) st0 = st0).
  { apply fold_left_same. intros k Hk. apply In_indices in Hk. unfold head_pass_step. cbn [ps_plan st0].
    destruct (Hc k Hk) as [_ [H0| ->]]; [contradiction|]. destruct (si_ok (nth_si p k)); reflexivity. }
  rewrite H2. reflexivity.
Qed.

(* every discovered target is held by some shard, or is not assignable (not probed healthy, or larger than a shard) *)
Definition all_placed (o : opts) (active : list (N * N)) (g : N -> cstat) (p : plan) : Prop :=
  forall h, In h (akeys active) ->
    existsb (fun si => amem h (scr_of si)) p = true \/ health_eqb (c_health (g h)) Good = false \/ is_too_big o (g h) = true.

Lemma assign_placed o active g p s : all_placed o active g p ->
  fst (assign o active g p s) = (p, (0, 0), []).
Proof.
  intros Hp. unfold assign. pose proof (order_perm (akeys active) s) as Hperm.
  destruct (order (akeys active) s) as [keys s1]. cbn [fst] in Hperm.
  rewrite fold_left_same; [reflexivity|].
  intros h Hin. apply assign_step_skip, Hp. exact (Permutation_in _ Hperm Hin).
Qed.

Record settled (o : opts) (i : input) : Prop := {
  se_plan : settled_plan (i_active i) (map (fun sh => fst (get_info sh)) (i_shards i));
  se_calm : calm o (map (fun sh => fst (get_info sh)) (i_shards i));
  se_placed : all_placed o (i_active i) (global_status (i_explore i) (map (fun sh => fst (get_info sh)) (i_shards i)))
                         (map (fun sh => fst (get_info sh)) (i_shards i));
  se_noscale : max_idle o = 0;            (* with an idle time-out tryScaleDown keeps consolidating: DESIGN.md section 4, C03 *)
  se_bounds : min_shard o <= Z.of_nat (length (i_shards i)) <= max_shard o;
}.

(* every stage hands on the plan of getShardInfos, and nothing is needed *)
Lemma settled_stages o i s : settled o i ->
  let S := run_stages o i s in
  st_p3 S = st_p0 S /\ st_p4 S = st_p0 S /\ st_need S = (0, 0) /\
  st_ev_a S = [] /\ st_ev_b S = [] /\ st_ev_c S = [] /\ st_scale S = Z.of_nat (length (i_shards i)).
Proof.
  intros [Hp Hc Hpl Hns _]. cbn zeta.
  assert (E1 : st_p1 (run_stages o i s) = st_p0 (run_stages o i s)).
  { rewrite stages_p1, stages_p0. now rewrite (gc_settled o _ _ Hp), (recover_settled _ _ Hp). }
  assert (Ea : alleviate o (st_p1 (run_stages o i s)) s = ((st_p0 (run_stages o i s), (0, 0), []), s)).
  { rewrite E1. apply alleviate_calm. exact Hc. }
  assert (Eb : fst (assign_of o i s) = (st_p0 (run_stages o i s), (0, 0), [])).
  { unfold assign_of. rewrite stages_p2, Ea. apply assign_placed. exact Hpl. }
  assert (E3 : st_p3 (run_stages o i s) = st_p0 (run_stages o i s)) by now rewrite stages_p3, Eb.
  assert (En : st_need (run_stages o i s) = (0, 0)) by now rewrite stages_need, Ea, Eb.
  rewrite stages_scale, stages_p4, stages_ev_c, E3, En, stages_ev_a, stages_ev_b, Ea, Eb.
  unfold tail_of. rewrite Hns. cbn [fst snd Z.eqb andb negb]. rewrite stages_p0, map_length. repeat split.
Qed.

Theorem settled_is_fixpoint o i sch : settled o i ->
  let out := cycle o i sch in
  o_events out = [] /\ o_scales out = [Z.of_nat (length (i_shards i))] /\
  o_plan out = o_infos out /\ o_skipped out = false /\ o_divzero out = false.
Proof.
  intros Hs. cbn zeta. destruct (settled_stages o i (sst_of sch) Hs) as (_ & H4 & Hn & Ea & Eb & Ec & Hsc).
  destruct (se_bounds o i Hs) as [Hlo Hhi].
  assert (Hfew : (Z.of_nat (length (i_shards i)) <? min_shard o) = false) by now apply Z.ltb_ge.
  assert (Hm : mode_of o i (sst_of sch) = MNormal).
  { unfold mode_of. now rewrite Hfew, (proj2 (need_zero_iff _) Hn). }
  rewrite o_events_cycle, o_scales_cycle, o_plan_cycle, o_infos_cycle, o_skipped_cycle, o_divzero_cycle, Hm.
  rewrite Ea, Eb, Ec, H4, Hsc. unfold early_scale. rewrite Hfew. repeat split.
  unfold clamp. destruct (Z.ltb_spec (max_shard o) (Z.of_nat (length (i_shards i)))); [lia|]. now rewrite Hfew.
Qed.

(* what is still sent (an empty shard is sent its empty list every cycle) repeats the assignment the shard reported *)
Theorem settled_posts_repeat o i sch k : settled o i ->
  let ob := obs_of (cycle o i sch) in
  forall x, In x (intended i ob k) <-> In x (map (fun kv => (fst kv, c_state (snd kv))) (reported i k)).
Proof.
  intros Hs. cbn zeta. intros x. unfold intended.
  destruct (post_at_cycle o i sch k) as [-> | [_ ->]]; [reflexivity|].
  destruct (settled_stages o i (sst_of sch) Hs) as (_ & H4 & _). unfold final_plan. rewrite H4, stages_p0, nth_si_p0.
  rewrite <- (scr_of_info_at i k), <- (new_targets_all_active (i_active i)).
  - rewrite !in_map_iff. split; intros (t & E & Ht); exists t; (split; [exact E|]); now apply In_sort_pts.
  - intros kv Hkv. rewrite <- nth_si_p0 in Hkv. exact (proj1 (sp_entries _ _ (se_plan o i Hs) k kv Hkv)).
Qed.
