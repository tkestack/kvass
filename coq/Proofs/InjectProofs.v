(* Proofs/InjectProofs.v — C11: what the injector does to every scrape job, and what it leaves alone. *)
From KV Require Import Base.Util Model.Inject.
Local Open Scope list_scope.
Local Open Scope string_scope.

Lemma lget_lset k v m k2 : lget k2 (lset k v m) = if String.eqb k2 k then Some v else lget k2 m.
Proof.
  induction m as [|[k' v'] r IH]; cbn [lset lget]; [reflexivity|].
  destruct (String.eqb_spec k k') as [<-|Hkk'].
  - cbn [lget]. now destruct (String.eqb k2 k).
  - destruct (String.ltb k k'); cbn [lget]; [reflexivity|]. rewrite IH.
    destruct (String.eqb_spec k2 k') as [->|]; [|reflexivity]. destruct (String.eqb_spec k' k); [congruence|reflexivity].
Qed.

(* the keys after an insertion do not depend on the value *)
Fixpoint kinsert (k : string) (ks : list string) : list string :=
  match ks with
  | [] => [k]
  | k' :: r => if String.eqb k k' then k :: r else if String.ltb k k' then k :: ks else k' :: kinsert k r
  end.
Lemma keys_lset k v m : map fst (lset k v m) = kinsert k (map fst m).
Proof.
  induction m as [|[k' v'] r IH]; simpl; [reflexivity|].
  destruct (String.eqb k k'); [reflexivity|]. destruct (String.ltb k k'); simpl; [reflexivity|]. now rewrite IH.
Qed.

(* the value a label list gives to a name: the last entry wins *)
Definition lastv (k : string) (ls : list (string * string)) : option string :=
  fold_left (fun acc kv => if String.eqb (fst kv) k then Some (snd kv) else acc) ls None.

Lemma lastv_snoc k ls x : lastv k (ls ++ [x]) = if String.eqb (fst x) k then Some (snd x) else lastv k ls.
Proof. unfold lastv. now rewrite fold_left_app. Qed.

(* a fold whose step overwrites the observed value exactly at the entries named n: the last such entry wins *)
Lemma fold_last {A X} (get : A -> X) (f : A -> string * string -> A) (n : string) (F : string -> X -> X) :
  (forall a e, get (f a e) = if String.eqb (fst e) n then F (snd e) (get a) else get a) ->
  (forall v w x, F v (F w x) = F v x) ->
  forall ls a, get (fold_left f ls a) = match lastv n ls with Some v => F v (get a) | None => get a end.
Proof.
  intros Hf HF. induction ls as [|e r IH] using rev_ind; intros a; [reflexivity|].
  rewrite lastv_snoc, fold_left_app. cbn [fold_left]. rewrite Hf, IH.
  destruct (String.eqb (fst e) n); [|reflexivity]. now destruct (lastv n r).
Qed.

Lemma last_label_lastv k d ls : last_label k d ls = match lastv k ls with Some v => v | None => d end.
Proof. exact (fold_last (fun a => a) _ k (fun v _ => v) (fun _ _ => eq_refl) (fun _ _ _ => eq_refl) ls d). Qed.

Lemma lget_of_labels k ls : lget k (of_labels ls) = lastv k ls.
Proof.
  unfold of_labels. rewrite (fold_last (lget k) _ k (fun v _ => Some v)); [now destruct (lastv k ls)| |reflexivity].
  intros a e. now rewrite lget_lset, String.eqb_sym.
Qed.

Lemma lastv_in k v ls : In (k, v) ls -> lastv k ls <> None.
Proof.
  induction ls as [|[k' v'] r IH] using rev_ind; [contradiction|].
  rewrite lastv_snoc. cbn [fst snd]. intros Hin. apply in_app_or in Hin. destruct Hin as [Hin|[[= -> ->]|[]]].
  - destruct (String.eqb k' k); [discriminate|auto].
  - now rewrite String.eqb_refl.
Qed.

Lemma keys_of_labels_app ls extra :
  map fst (of_labels (ls ++ extra)) = fold_left (fun ks kv => kinsert (fst kv) ks) extra (map fst (of_labels ls)).
Proof.
  unfold of_labels. rewrite fold_left_app. generalize (fold_left (fun m kv => lset (fst kv) (snd kv) m) ls []).
  induction extra as [|[k v] r IH]; intros m; simpl; [reflexivity|]. rewrite IH, keys_lset. reflexivity.
Qed.

Definition routing_names : list string := ["__param__scheme"; "__param__jobName"; "__param__hash"].
Definition no_clash (t : target) : Prop := forall kv, In kv (t_labels t) -> ~ In (fst kv) routing_names.

Lemma lget_to_group jobname t k :
  lget k (g_labels (to_group jobname t)) =
  if String.eqb k "__param__hash" then Some (dec (t_hash t))
  else if String.eqb k "__param__jobName" then Some jobname
  else if String.eqb k "__param__scheme" then Some (last_label "__scheme__" "http" (t_labels t))
  else if String.eqb k "__scheme__" then Some "http" else lget k (of_labels (t_labels t)).
Proof. unfold to_group. cbn [g_labels]. now rewrite !lget_lset. Qed.

Lemma length_to_group jobname t :
  length (g_labels (to_group jobname t)) =
  length (of_labels (t_labels t ++ [("__scheme__", ""); ("__param__scheme", ""); ("__param__jobName", ""); ("__param__hash", "")])).
Proof.
  unfold to_group. cbn [g_labels]. rewrite <- !(map_length fst), keys_of_labels_app, !keys_lset. reflexivity.
Qed.

Lemma no_clash_key k : ~ In k routing_names ->
  String.eqb k "__param__hash" = false /\ String.eqb k "__param__jobName" = false /\ String.eqb k "__param__scheme" = false.
Proof. intros H. repeat split; apply String.eqb_neq; intros ->; apply H; simpl; auto. Qed.

Lemma andb7 a b c d e f g :
  a = true -> b = true -> c = true -> d = true -> e = true -> f = true -> g = true -> a && b && c && d && e && f && g = true.
Proof. now intros -> -> -> -> -> -> ->. Qed.

Lemma group_ok_to_group jobname t : no_clash t -> group_ok jobname t (to_group jobname t) = true.
Proof.
  intros Hc. apply andb7.
  - unfold str_list_eqb. cbn [to_group g_targets list_eqb]. now rewrite String.eqb_refl.
  - apply forallb_forall. intros [k v] Hin. cbn [fst]. destruct (String.eqb k "__scheme__") eqn:Es; [reflexivity|].
    destruct (no_clash_key k (Hc (k, v) Hin)) as (H1 & H2 & H3).
    rewrite lget_to_group, H1, H2, H3, Es, lget_of_labels, last_label_lastv.
    pose proof (lastv_in k v _ Hin) as Hn. destruct (lastv k (t_labels t)); [apply String.eqb_refl | congruence].
  - now rewrite lget_to_group.
  - rewrite lget_to_group. apply String.eqb_refl.
  - rewrite lget_to_group. apply String.eqb_refl.
  - rewrite lget_to_group. apply String.eqb_refl.
  - rewrite length_to_group. apply Nat.eqb_refl.
Qed.

Lemma groups_ok_map jobname ts :
  Forall no_clash ts -> groups_ok jobname ts (map (to_group jobname) ts) = true.
Proof.
  induction 1 as [|t r Ht Hr IH]; simpl; [reflexivity|]. now rewrite group_ok_to_group, IH.
Qed.

Lemma secret_free_redact s : secret_free (redact s) = true.
Proof.
  destruct s as [s|]; [|reflexivity]. destruct s as [|c s']; simpl; [reflexivity|]. reflexivity.
Qed.

Definition assign_ok (a : list (string * list target)) : Prop := Forall (fun jt => Forall no_clash (snd jt)) a.
Lemma assigned_ok a jobname : assign_ok a -> Forall no_clash (assigned jobname a).
Proof.
  induction 1 as [|[j ts] r H Hr IH]; simpl; [constructor|]. destruct (String.eqb j jobname); [exact H|exact IH].
Qed.

Lemma job_ok_inject o a j : assign_ok a -> job_ok o a j (inject_job o a j) = true.
Proof.
  intros Ha. unfold job_ok, inject_job. cbn [j_name j_scheme j_ingest j_groups j_other_sd j_http h_basic_user h_basic_pass h_tls h_authz h_oauth h_proxy].
  rewrite !String.eqb_refl, groups_ok_map by (now apply assigned_ok). rewrite !secret_free_redact. simpl.
  destruct (String.eqb (o_proxy o) "") eqn:E; [reflexivity|]. apply String.eqb_refl.
Qed.

(* every job of the configuration, in order, then the self-monitoring job iff it is enabled *)
Theorem jobs_ok_inject o a jobs : assign_ok a -> jobs_ok o a jobs (inject o a jobs) = true.
Proof.
  intros Ha. unfold inject. induction jobs as [|j r IH]; simpl.
  - destruct (o_monitor o) as [[[host pod] shard]|]; simpl; [|reflexivity].
    unfold str_list_eqb. simpl. now rewrite String.eqb_refl.
  - rewrite job_ok_inject by assumption. exact IH.
Qed.

Theorem names_kept o a jobs :
  map j_name (inject o a jobs) = (map j_name jobs ++ match o_monitor o with Some _ => ["prometheus_shards"] | None => [] end)%list.
Proof.
  unfold inject. rewrite map_app, map_map. simpl. f_equal. destruct (o_monitor o) as [[[h p] s]|]; reflexivity.
Qed.

(* the ingestion-relevant settings and the job-level http settings that survive *)
Theorem job_fields o a j :
  let x := inject_job o a j in
  j_ingest x = j_ingest j /\ j_scheme x = "http" /\ j_other_sd x = 0%nat /\
  h_basic_user (j_http x) = None /\ h_basic_pass (j_http x) = None /\ h_tls (j_http x) = "" /\
  length (j_groups x) = length (assigned (j_name j) a) /\
  (o_proxy o <> "" -> h_proxy (j_http x) = o_proxy o).
Proof.
  cbv zeta. unfold inject_job. cbn. repeat split; try reflexivity.
  - now rewrite map_length.
  - intros H. destruct (String.eqb_spec (o_proxy o) ""); [contradiction|reflexivity].
Qed.

Section Sections.
Context {D : Type}.
Theorem merge_keys (g o : list (string * D)) : map fst (merge_sections g o) = map fst g.
Proof.
  unfold merge_sections. rewrite map_map. apply map_ext. intros [k v]. cbn [fst].
  destruct (String.eqb k "scrape_configs"); [reflexivity|]. destruct (sec_find k o); reflexivity.
Qed.

Theorem merge_takes_origin (g o : list (string * D)) k x :
  In (k, x) (merge_sections g o) ->
  (k = "scrape_configs" -> In (k, x) g) /\
  (k <> "scrape_configs" -> match sec_find k o with Some v => x = v | None => In (k, x) g end).
Proof.
  unfold merge_sections. rewrite in_map_iff. intros [[k' v'] [He Hin]]. cbn [fst] in He.
  destruct (String.eqb_spec k' "scrape_configs") as [->|Hne].
  - injection He as <- <-. split; [auto|congruence].
  - destruct (sec_find k' o) as [v|] eqn:Ef; injection He as <- <-; (split; [congruence|intros _; rewrite Ef; auto]).
Qed.
End Sections.
