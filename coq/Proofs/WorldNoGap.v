(* Proofs/WorldNoGap.v — the closed loop never drops a discovered target that some shard holds:
   composition of C01 (a keeper among the in-sync holders), C08 (a shard that is not in sync is left alone),
   C07 (no scale request removes a shard in use) and C10 (a target update makes the sidecar hold the body),
   over the World model, for every cycle with ANY faults (lost updates, unreachable / unready / stale shards) under
   every schedule, every scrape round, tick and restart.  Then, for fault-free cycles: the sidecars end up holding what
   the final plan says, a settled world stays as it is, a scrape round adds its scrapes to every counter, and a ripe world
   becomes a clean one. *)
From KV Require Import Base.Util Base.AMap Base.Sched Model.Coordinator Model.CoordCheck Model.Sidecar Model.World
  Proofs.CoordBasics Proofs.CoordC01 Proofs.CoordC07 Proofs.CoordStable Proofs.CoordRipe Proofs.SidecarProofs
  Proofs.WorldProofs.
Local Open Scope list_scope.
Local Open Scope Z_scope.

Lemma post_unique o i sch k body : NoDupReports i -> nth k (o_posts (cycle o i sch)) None = Some body -> body_unique body.
Proof.
  intros Hnd Hb. destruct (post_some o i sch k body Hb) as (_ & -> & _).
  apply new_targets_unique, (stages_nodup o i (sst_of sch) Hnd).
Qed.

Lemma model_posts_unique o i sch : NoDupReports i ->
  Forall (fun p => forall body, p = Some body -> body_unique body) (o_posts (cycle o i sch)).
Proof.
  intros Hnd. apply Forall_forall. intros p Hin body ->. destruct (In_nth _ _ None Hin) as [k [_ Hk]].
  exact (post_unique o i sch k body Hnd Hk).
Qed.

Lemma scales_keep_planned o i sch j h r :
  Z.of_nat (length (i_shards i)) <= max_shard o -> (j < length (i_shards i))%nat ->
  In h (keys_at (final_plan o i sch) j) -> In r (o_scales (cycle o i sch)) -> Z.of_nat (S j) <= r.
Proof.
  intros Hmax Hj Hh Hr. destruct (mode_of o i (sst_of sch)) eqn:Em.
  1,2: rewrite o_scales_cycle, Em, app_nil_r in Hr; apply early_scale_in in Hr; lia.
  apply (c07_keeps_used o i sch r j Hmax Hr Hj). right. right. right.
  rewrite o_plan_cycle, Em. unfold final_plan in Hh. intros E. rewrite E in Hh. destruct Hh.
Qed.

Definition holds (s : wshard) (h : N) : Prop := In h (akeys (sc_status (ws_sc s))).
Definition synced (s : wshard) : Prop := sc_store (ws_sc s) = Some (sc_targets (ws_sc s), sc_idle (ws_sc s)).
Lemma synced_stored s : synced s <-> stored (ws_sc s).
Proof. reflexivity. Qed.

Definition dws : wshard := fresh_shard 0.

Definition held (w : world) (h : N) : Prop :=
  exists k, (k < length (w_shards w))%nat /\ holds (nth k (w_shards w) dws) h.

Lemma wf_at w k : wwf w -> wf (ws_sc (nth k (w_shards w) dws)).
Proof. intros Hw. apply (Forall_nth_d _ _ _ _ Hw), wf_start. Qed.

(* an entry is an entry of a shard that is there: beyond the last shard stands the empty default *)
Lemma entry_lt w k h e : afind h (sc_status (ws_sc (nth k (w_shards w) dws))) = Some e -> (k < length (w_shards w))%nat.
Proof.
  intros He. destruct (Nat.lt_ge_cases k (length (w_shards w))) as [H|H]; [exact H|].
  rewrite nth_overflow in He by exact H. discriminate.
Qed.

Lemma after_cycle_holds tru w f k s post h :
  holds s h -> (forall body, post = Some body -> In h (map pt_hash body)) -> holds (after_cycle_shard tru w f k s post) h.
Proof.
  intros Hh Hb. unfold holds. apply after_cycle_sc_inv; [exact Hh|]. intros body E.
  rewrite do_update_status, update_status_keys, In_hashes_request_of. now apply Hb.
Qed.

Lemma scrape_shard_holds tru n s h : holds s h -> holds (scrape_shard tru n s) h.
Proof. apply (scrape_shard_inv (fun sc => In h (akeys (sc_status sc)))). intros sc h'. now rewrite do_scrape_keys. Qed.

Lemma restart_holds s now h : wf (ws_sc s) -> synced s -> holds s h ->
  In h (akeys (sc_status (do_restart (ws_sc s) now))).
Proof.
  intros Hw Hs Hh. apply synced_stored in Hs. rewrite (do_restart_stored _ _ _ now Hs). cbn [sc_status]. rewrite update_status_keys.
  now rewrite <- (wf_keys _ Hw).
Qed.

Lemma reported_calm tru w k :
  reported (cycle_input tru w no_faults) k =
  map (fun kv => (fst kv, cstat_of (snd kv))) (sc_status (ws_sc (nth k (w_shards w) dws))).
Proof.
  rewrite (reported_world tru w no_faults k dws). cbn [no_faults f_not_ready f_unreachable hit existsb negb].
  rewrite !andb_true_r. destruct (Nat.ltb_spec k (length (w_shards w))) as [Hk|Hk]; [reflexivity|].
  now rewrite nth_overflow.
Qed.

Lemma afind_reported_calm tru w k h :
  afind h (reported (cycle_input tru w no_faults) k) =
  option_map cstat_of (afind h (sc_status (ws_sc (nth k (w_shards w) dws)))).
Proof. rewrite reported_calm. apply (afind_map (fun _ => cstat_of)). Qed.

(* Where a held target is after one cycle with any faults: on C01's keeper if the holder was in sync, else on the holder
   itself, which the coordinator sends nothing (C08); either way no scale request removes that shard (C07). *)
Lemma cycle_keeper o tru w f sch h k0 :
  wwf w -> Z.of_nat (length (w_shards w)) <= max_shard o -> In h (w_active w) ->
  (k0 < length (w_shards w))%nat -> holds (nth k0 (w_shards w) dws) h ->
  let out := cycle o (cycle_input tru w f) sch in
  exists k, (k < length (w_shards w))%nat /\
    holds (after_cycle_shard tru w f k (nth k (w_shards w) dws) (nth k (o_posts out) None)) h /\
    (forall r, In r (o_scales out) -> Z.of_nat (S k) <= r).
Proof.
  intros Hw Hmax Hact Hk0 Hh0. cbn zeta. set (i := cycle_input tru w f).
  assert (Hlen : length (i_shards i) = length (w_shards w)) by apply inputs_length.
  rewrite <- Hlen in Hmax. destruct (insync i k0) eqn:Hs0.
  - assert (Hnd : NoDupReports i) by now apply nodup_reports_world.
    assert (Hacti : is_active (i_active i) h = true) by now apply active_world.
    assert (Hr0 : In h (akeys (reported i k0)))
      by (unfold i; rewrite (reported_insync tru w f k0 dws Hs0), (akeys_map (fun _ => cstat_of)); exact Hh0).
    destruct (c01_keeper o i sch h k0 Hnd Hacti Hs0 Hr0) as [j [Hsj [Hrj Hpj]]].
    destruct (insync_world tru w f j Hsj) as [Hj _].
    unfold i in Hrj. rewrite (reported_insync tru w f j dws Hsj), (akeys_map (fun _ => cstat_of)) in Hrj.
    exists j. split; [exact Hj|]. split.
    + apply after_cycle_holds; [exact Hrj|].
      intros body Hb. destruct (post_some o i sch j body Hb) as (_ & -> & _).
      destruct (new_targets_has (i_active i) _ h Hacti Hpj) as [t [Ht <-]]. apply in_map. exact Ht.
    + intros r Hr. rewrite <- Hlen in Hj. exact (scales_keep_planned o i sch j h r Hmax Hj Hpj Hr).
  - exists k0. split; [exact Hk0|]. split.
    + apply after_cycle_holds; [exact Hh0|]. intros body Hb.
      destruct (post_some o i sch k0 body Hb) as (Hs & _). congruence.
    + intros r Hr. apply (c07_keeps_used o i sch r k0 Hmax Hr); [rewrite Hlen; exact Hk0 | left; exact Hs0].
Qed.

Theorem cycle_no_gap o tru w f sch h :
  wwf w -> Z.of_nat (length (w_shards w)) <= max_shard o ->
  In h (w_active w) -> held w h -> held (model_cycle o tru w f sch) h.
Proof.
  intros Hw Hmax Hact [k0 [Hk0 Hh0]].
  destruct (cycle_keeper o tru w f sch h k0 Hw Hmax Hact Hk0 Hh0) as [k [Hk [Hh Hsc]]].
  destruct (apply_cycle_keeps tru w f (o_posts (cycle o (cycle_input tru w f) sch)) _ k dws Hk Hsc) as [Hk' Hn].
  exists k. split; [exact Hk'|]. unfold model_cycle. rewrite Hn. exact Hh.
Qed.

Definition wsynced (w : world) : Prop := Forall synced (w_shards w).
Record winv (o : opts) (w : world) : Prop := {
  wi_wf : wwf w;
  wi_sync : wsynced w;
  wi_len : Z.of_nat (length (w_shards w)) <= max_shard o;
}.

Lemma wsynced_stored w : wsynced w <-> Forall (fun s => stored (ws_sc s)) (w_shards w).
Proof. reflexivity. Qed.

Lemma synced_at w k : wsynced w -> synced (nth k (w_shards w) dws).
Proof. intros Hs. now apply (Forall_nth_d _ _ _ _ Hs). Qed.

Lemma winv_cycle o tru w f sch : min_shard o <= max_shard o -> winv o w -> winv o (model_cycle o tru w f sch).
Proof.
  intros Hmm [Hw Hs Hl]. unfold model_cycle. set (out := cycle o (cycle_input tru w f) sch). constructor.
  - apply wwf_apply_cycle; [exact Hw|]. apply model_posts_unique, nodup_reports_world, Hw.
  - apply wsynced_stored, (keep_apply_cycle tru _ stored (stored_ops _)); [apply wsynced_stored, Hs|]. apply Forall_forall. intros p _ body _. exact I.
  - rewrite apply_cycle_length. destruct (o_scales out) as [|x r] eqn:E; [exact Hl|].
    assert (Hin : In (last (x :: r) 0) (o_scales out)) by (rewrite E; apply last_in; discriminate).
    apply (c07_bounds o _ sch _ Hmm) in Hin. lia.
Qed.

Lemma winv_det o tru w st : winv o w -> winv o (lstep_det tru w st).
Proof.
  intros [Hw Hs Hl]. constructor; [now apply wwf_step | | now rewrite lstep_det_length].
  apply wsynced_stored, (keep_lstep_det tru _ stored (stored_ops _)), wsynced_stored, Hs.
Qed.

Lemma held_det o tru w st h : winv o w -> held w h -> held (lstep_det tru w st) h.
Proof.
  intros [Hw Hs _] [k [Hk Hh]]. exists k. rewrite lstep_det_length, nth_lstep_det by exact Hk. split; [exact Hk|].
  destruct st as [f|n|dt|j|hs]; try exact Hh.
  - now apply scrape_shard_holds.
  - destruct (Nat.eqb j k); [|exact Hh]. apply restart_holds; [now apply wf_at | now apply synced_at | exact Hh].
Qed.

(* one step of a history: a cycle with faults under an arbitrary schedule, a scrape round, a tick, a restart, a change of
   the discovered set *)
Definition hist_step (o : opts) (tru : amap truth) (w : world) (st : lstep * list nat) : world :=
  match fst st with LCycle f => model_cycle o tru w f (snd st) | s => lstep_det tru w s end.

Lemma winv_hist_step o tru w st : min_shard o <= max_shard o -> winv o w -> winv o (hist_step o tru w st).
Proof. intros Hmm Hi. destruct st as [[f|n|dt|k|hs] sch]; try now apply winv_det. now apply winv_cycle. Qed.

Lemma active_det tru w st : w_active (lstep_det tru w st) = match st with LSetActive hs => hs | _ => w_active w end.
Proof. now destruct st. Qed.

Theorem history_no_gap o tru h : min_shard o <= max_shard o ->
  forall steps w,
  winv o w -> In h (w_active w) -> (forall hs sch, In (LSetActive hs, sch) steps -> In h hs) ->
  held w h -> held (fold_left (hist_step o tru) steps w) h.
Proof.
  intros Hmm. induction steps as [|[st sch] r IH]; intros w Hinv Hact Hkeep Hh; [exact Hh|].
  cbn [fold_left]. apply IH.
  - now apply winv_hist_step.
  - destruct st as [f|n|dt|k|hs]; try exact Hact. apply (Hkeep hs sch). now left.
  - intros hs sch' Hin. apply (Hkeep hs sch'). now right.
  - destruct st as [f|n|dt|k|hs]; try (apply (held_det o); assumption).
    destruct Hinv as [Hw _ Hl]. now apply cycle_no_gap.
Qed.

Theorem settled_shard_unchanged o tru w sch k h :
  wwf w -> settled o (cycle_input tru w no_faults) ->
  let out := cycle o (cycle_input tru w no_faults) sch in
  let s := nth k (w_shards w) dws in
  afind h (sc_status (ws_sc (after_cycle_shard tru w no_faults k s (nth k (o_posts out) None)))) = afind h (sc_status (ws_sc s)).
Proof.
  intros Hw Hset. cbn zeta. set (i := cycle_input tru w no_faults). set (out := cycle o i sch).
  set (s := nth k (w_shards w) dws).
  rewrite after_cycle_sc_calm. destruct (nth k (o_posts out) None) as [body|] eqn:Eb; [|reflexivity].
  assert (Hwf : wf (ws_sc s)) by now apply wf_at.
  assert (Hu : body_unique body) by (apply (post_unique o i sch k body); [now apply nodup_reports_world | exact Eb]).
  (* the body, as a set of (hash, state), is what the shard reported: what it holds *)
  assert (Hint : forall x, In x (map (fun t => (pt_hash t, pt_state t)) body) <->
                           In x (map (fun kv => (fst kv, ss_state (snd kv))) (sc_status (ws_sc s)))).
  { intros x. unfold s. pose proof (settled_posts_repeat o i sch k Hset x) as H. unfold intended in H.
    rewrite post_at_obs in H. fold out in H. rewrite Eb in H. unfold i in H. rewrite reported_calm, map_map in H.
    cbn [fst snd cstat_of c_state] in H. rewrite <- H. split; intros Hx; apply in_map_iff in Hx; destruct Hx as [t [Ht Hin]]; apply in_map_iff; exists t;
      (split; [exact Ht|]); now apply In_sort_pts. }
  rewrite do_update_status. apply update_status_idem; [now apply request_unique | |].
  - intros t Hin. apply In_request_of in Hin. destruct Hin as [p [<- Hp]].
    assert (Hx : In (pt_hash p, pt_state p) (map (fun kv => (fst kv, ss_state (snd kv))) (sc_status (ws_sc s))))
      by (apply Hint, in_map_iff; now exists p).
    apply in_map_iff in Hx. destruct Hx as [[h' e] [[= -> Hst] Hine]]. exists e. split; [|exact Hst].
    apply In_afind_nodup; [now apply wf_keys_nodup | exact Hine].
  - intros h' Hin. apply afind_some_keys in Hin. destruct Hin as [e He]. apply In_hashes_request_of.
    assert (Hx : In (h', ss_state e) (map (fun t => (pt_hash t, pt_state t)) body)).
    { apply Hint, in_map_iff. exists (h', e). split; [reflexivity|now apply afind_In]. }
    apply in_map_iff in Hx. destruct Hx as [p [[= <- _] Hp]]. now apply in_map.
Qed.

(* the whole world: same number of shards, every sidecar's status map as before - "further cycles then change nothing" *)
Theorem settled_world_unchanged o tru w sch :
  wwf w -> settled o (cycle_input tru w no_faults) ->
  let w' := model_cycle o tru w no_faults sch in
  length (w_shards w') = length (w_shards w) /\
  forall k h, (k < length (w_shards w))%nat ->
    afind h (sc_status (ws_sc (nth k (w_shards w') dws))) = afind h (sc_status (ws_sc (nth k (w_shards w) dws))).
Proof.
  intros Hw Hset. cbn zeta. unfold model_cycle.
  destruct (settled_is_fixpoint o (cycle_input tru w no_faults) sch Hset) as (_ & Hsc & _). cbn zeta in Hsc.
  rewrite inputs_length in Hsc.
  split; [rewrite apply_cycle_length, Hsc; cbn [last]; apply Nat2Z.id|].
  intros k h Hk.
  destruct (apply_cycle_keeps tru w no_faults (o_posts (cycle o (cycle_input tru w no_faults) sch))
              (o_scales (cycle o (cycle_input tru w no_faults) sch)) k dws Hk) as [_ ->].
  - rewrite Hsc. intros r [<-|[]]. lia.
  - now apply settled_shard_unchanged.
Qed.

(* a round of n scrapes of everything a (well-formed) sidecar is assigned: every counter grows by n, no state changes *)
Theorem scrape_round_counts tru n s h e : wf (ws_sc s) -> afind h (sc_status (ws_sc s)) = Some e ->
  exists e', afind h (sc_status (ws_sc (scrape_shard tru n s))) = Some e' /\
             ss_times e' = (ss_times e + N.of_nat n)%N /\ ss_state e' = ss_state e.
Proof.
  intros Hw Hf. pose proof (scrape_round_counts_of (scrape_result_of tru) n _ (ws_sc s) h (wf_keys_nodup _ Hw)) as Hc.
  rewrite <- scrape_shard_sc in Hc. unfold counts_of in Hc. rewrite Hf in Hc.
  replace (existsb (N.eqb h) (map fst (sc_status (ws_sc s)))) with true in Hc
    by (symmetry; apply existsb_eqb_in, afind_some_keys; eauto).
  destruct (afind h (sc_status (ws_sc (scrape_shard tru n s)))) as [e'|]; [|discriminate].
  injection Hc as Ht Hs. eauto.
Qed.

(* after a fault-free cycle that was not skipped every sidecar holds exactly the discovered targets the final plan has for
   its shard, in the same states (C08 left-alone / C10 update semantics / needUpdate), whether or not an update was sent *)
Theorem world_follows_plan o tru w sch k h st :
  wwf w -> (k < length (w_shards w))%nat ->
  let i := cycle_input tru w no_faults in
  let out := cycle o i sch in
  o_skipped out = false -> o_divzero out = false ->
  let s' := after_cycle_shard tru w no_faults k (nth k (w_shards w) dws) (nth k (o_posts out) None) in
  (exists e, afind h (sc_status (ws_sc s')) = Some e /\ ss_state e = st) <->
  (exists c, afind h (scr_of (nth_si (o_plan out) k)) = Some c /\ c_state c = st /\ is_active (i_active i) h = true).
Proof.
  intros Hw Hk. cbn zeta. set (i := cycle_input tru w no_faults). intros Hsk Hdz.
  destruct (post_main o i sch k Hsk Hdz) as [Hpost ->]. rewrite Hpost, after_cycle_sc_calm. clear Hpost Hsk Hdz.
  assert (Hnd : NoDupReports i) by now apply nodup_reports_world.
  assert (Hnd4 : NoDup (akeys (scr_of (nth_si (final_plan o i sch) k)))) by apply (stages_nodup o i (sst_of sch) Hnd).
  rewrite <- (new_targets_char (i_active i) _ h st Hnd4).
  pose proof (new_targets_unique (i_active i) _ Hnd4) as Hu.
  assert (Hsy : insync i k = true) by now apply insync_nofaults.
  unfold apply_shard. rewrite final_ok, Hsy. cbn [negb]. fold (reported i k).
  set (ts := new_targets (i_active i) (nth_si (final_plan o i sch) k)) in *.
  destruct (need_update ts (reported i k)) eqn:Enu.
  - (* an update is sent and arrives: the entries are those of the body, each in the state asked for *)
    replace (fst (if sh_post_ok (shard_at i k) then (Some ts, [PostTargets; PostExtra]) else (Some ts, [PostTargets])))
      with (Some ts) by now destruct (sh_post_ok _).
    rewrite do_update_status. split.
    + intros [e [Hf <-]]. apply (update_request_find tru _ ts h e Hu) in Hf. destruct Hf as [p [Hp [Hh ->]]].
      exists p. split; [exact Hp|]. split; [exact Hh|reflexivity].
    + intros [p [Hp [Hh <-]]]. exists (entry_for (sc_status (ws_sc (nth k (w_shards w) dws))) (mk_tgt tru p)).
      split; [|reflexivity]. apply (update_request_find tru _ ts h _ Hu). exists p. split; [exact Hp|]. split; [exact Hh|reflexivity].
  - (* nothing is sent: the shard already holds exactly this *)
    cbn [fst]. rewrite (need_update_false_same ts (reported i k) Hu Enu h st).
    unfold i. rewrite afind_reported_calm. destruct (afind h (sc_status (ws_sc (nth k (w_shards w) dws)))) as [e|]; cbn.
    + split; [intros [e' [[= <-] Hs]]; exists (cstat_of e); auto|intros [c [[= <-] Hs]]; exists e; auto].
    + split; intros [x [Hx _]]; discriminate.
Qed.

Lemma p3_calm o tru w sch : max_idle o = 0 ->
  let S := run_stages o (cycle_input tru w no_faults) (sst_of sch) in
  length (st_p3 S) = length (w_shards w) /\
  forall k, (k < length (w_shards w))%nat -> si_ok (nth_si (st_p3 S) k) = true.
Proof.
  intros R. cbn zeta. rewrite <- (stages_p4_noidle o _ (sst_of sch) R). split.
  - now rewrite stages_len_p4, inputs_length.
  - intros k Hk. fold (final_plan o (cycle_input tru w no_faults) sch). rewrite final_ok. now apply insync_nofaults.
Qed.

Theorem ripe_world_becomes_clean o tru w sch :
  wwf w -> max_idle o = 0 -> NoDup (w_active w) ->
  (forall k h e, (k < length (w_shards w))%nat -> afind h (sc_status (ws_sc (nth k (w_shards w) dws))) = Some e -> (3 <= ss_times e)%N) ->
  let i := cycle_input tru w no_faults in
  let out := cycle o i sch in
  calm o (st_p1 (run_stages o i (sst_of sch))) -> o_skipped out = false -> o_divzero out = false ->
  let status' := fun k => sc_status (ws_sc (after_cycle_shard tru w no_faults k (nth k (w_shards w) dws) (nth k (o_posts out) None))) in
  forall k h e, (k < length (w_shards w))%nat -> afind h (status' k) = Some e ->
    ss_state e = Normal /\ In h (w_active w) /\
    forall j, j <> k -> (j < length (w_shards w))%nat -> afind h (status' j) = None.
Proof.
  intros Hw Hmi Hnda Hripe. cbn zeta. set (i := cycle_input tru w no_faults). set (out := cycle o i sch).
  intros Hcalm Hsk Hdz k h e Hk Hf.
  assert (Hclean : clean (i_active i) (st_p3 (run_stages o i (sst_of sch)))).
  { apply ripe_cycle_gives_clean_plan.
    - now apply nodup_reports_world.
    - unfold i. now rewrite active_keys_world.
    - intros k' h' c Hc. unfold i in Hc. rewrite afind_reported_calm in Hc.
      destruct (afind h' (sc_status (ws_sc (nth k' (w_shards w) dws)))) as [e'|] eqn:Ee; [|discriminate].
      injection Hc as <-. exact (Hripe k' h' e' (entry_lt w k' h' e' Ee) Ee).
    - intros h' c Hc. unfold i in Hc. rewrite explore_world in Hc. destruct (existsb _ _); [|discriminate].
      injection Hc as <-. now destruct (tr_healthy _).
    - exact Hcalm. }
  assert (Hplan : o_plan out = st_p3 (run_stages o i (sst_of sch))).
  { unfold out. destruct (post_main o i sch k Hsk Hdz) as [_ ->]. now apply stages_p4_noidle. }
  destruct (p3_calm o tru w sch Hmi) as [_ Hok3]. fold i in Hok3.
  (* a sidecar's entry is an entry of the plan (world_follows_plan), and the plan is clean *)
  assert (Hin : forall j e', (j < length (w_shards w))%nat ->
            afind h (sc_status (ws_sc (after_cycle_shard tru w no_faults j (nth j (w_shards w) dws) (nth j (o_posts out) None)))) = Some e' ->
            exists c, afind h (scr_of (nth_si (st_p3 (run_stages o i (sst_of sch))) j)) = Some c /\ c_state c = ss_state e' /\
                      is_active (i_active i) h = true).
  { intros j e' Hj He'. rewrite <- Hplan. apply (world_follows_plan o tru w sch j h (ss_state e') Hw Hj Hsk Hdz). eauto. }
  destruct (Hin k e Hk Hf) as [c [Hc [Hs Hact]]].
  destruct (cl_entry _ _ Hclean k h c (Hok3 k Hk) Hc) as [_ Hn].
  split; [congruence|]. split.
  - unfold i in Hact. rewrite <- (active_keys_world tru w no_faults). now apply amem_keys.
  - intros j Hj Hjl.
    destruct (afind h (sc_status (ws_sc (after_cycle_shard tru w no_faults j (nth j (w_shards w) dws) (nth j (o_posts out) None))))) as [e'|] eqn:Ee; [|reflexivity].
    exfalso. destruct (Hin j e' Hjl Ee) as [c' [Hc' _]].
    rewrite (cl_single _ _ Hclean k j h c (not_eq_sym Hj) (Hok3 k Hk) (Hok3 j Hjl) Hc) in Hc'. discriminate.
Qed.
