(* Proofs/CoordEvents.v — after gc and recovery the planning stages change the plan only by placements: a move
   (transferTarget) or a first assignment, each logged as one event.  `run` collects the placements of a stretch of
   planning; the stages are walked once to show that they are runs, and what a stage preserves, and what every event
   satisfies, is then proved per placement. *)
From KV Require Import Base.Util Base.AMap Base.Sched Gen.Consts Model.Coordinator Proofs.CoordBasics.
Local Open Scope list_scope.
Local Open Scope Z_scope.

Definition ev_fits (o : opts) (e : event) : Prop :=
  (max_head o = 0 \/ ev_head_before e + ev_series e < max_head o) /\
  ev_proc_before e + ev_total e < max_proc o.

(* a first assignment never concerns a target that alone exceeds a limit *)
Definition ev_sized (o : opts) (e : event) : Prop :=
  ev_kind_of e = First ->
  (max_head o = 0 \/ ev_series e <= max_head o) /\ ev_total e <= max_proc o.

Definition fits_on (o : opts) (s : sinfo) (c : cstat) : Prop :=
  (max_head o = 0 \/ si_head s + c_series c < max_head o) /\ si_proc s + c_total c < max_proc o.

Lemma first_dest_spec site p k j :
  first_dest site p k = Some j -> j <> k /\ si_ok (nth_si p j) = true /\ site (nth_si p j) = true.
Proof.
  unfold first_dest. intros H. apply find_some in H. destruct H as [_ H].
  apply andb_true_iff in H. destruct H as [H Hs]. apply andb_true_iff in H. destruct H as [Hne Hok].
  apply negb_true_iff, Nat.eqb_neq in Hne. auto.
Qed.

Lemma free_candidates_spec o p limit series total j :
  In j (free_candidates o p limit series total) ->
  (j < limit)%nat /\ si_ok (nth_si p j) = true /\ site_free_shard o (nth_si p j) series total = true.
Proof.
  unfold free_candidates. intros H. apply filter_In in H. destruct H as [Hin H].
  apply in_seq in Hin. apply andb_true_iff in H. destruct H. split; [lia | auto].
Qed.

Lemma get_free_shard_spec o p limit series total s j s' :
  get_free_shard o p limit series total s = (Some j, s') ->
  (j < limit)%nat /\ si_ok (nth_si p j) = true /\ site_free_shard o (nth_si p j) series total = true.
Proof.
  unfold get_free_shard.
  destruct (free_candidates o p limit series total) as [|j0 cands] eqn:E; [discriminate|].
  destruct (max_idle o =? 0).
  - destruct (choose (length (j0 :: cands)) s) as [i s1] eqn:Ec. intros H. injection H as <- <-.
    apply (free_candidates_spec o p limit series total). rewrite E.
    assert (Hi : (i < length (j0 :: cands))%nat).
    { change i with (fst (i, s1)). rewrite <- Ec. apply choose_lt. simpl. lia. }
    exact (nth_In (j0 :: cands) j0 Hi).
  - intros [= <- <-]. apply (free_candidates_spec o p limit series total). rewrite E. now left.
Qed.

Lemma site_free_fits o s c : site_free_shard o s (c_series c) (c_total c) = true -> fits_on o s c.
Proof.
  unfold site_free_shard. intros H. apply andb_true_iff in H. destruct H as [H1 H2].
  apply Z.ltb_lt in H2. split; [|assumption].
  apply orb_true_iff in H1. destruct H1 as [H1|H1]; [left; now apply Z.eqb_eq | right; now apply Z.ltb_lt].
Qed.

(* getFreeShard and the process pass of alleviateShards test the same thing *)
Lemma site_proc_relief_eq o s c : site_proc_relief o s c = site_free_shard o s (c_series c) (c_total c).
Proof. reflexivity. Qed.

Lemma site_head_fits o s c : site_head_relief o s c = true -> fits_on o s c.
Proof.
  unfold site_head_relief. intros H. apply andb_true_iff in H. destruct H as [H1 H2].
  apply Z.ltb_lt in H1, H2. split; [now right | assumption].
Qed.

Lemma counted_times c : counted c = true -> (min_wait <= c_times c)%N.
Proof.
  unfold counted. intros H. apply andb_true_iff in H. destruct H as [_ H]. now apply N.leb_le.
Qed.

Lemma not_too_big o c : is_too_big o c = false ->
  (max_head o = 0 \/ c_series c <= max_head o) /\ c_total c <= max_proc o.
Proof.
  unfold is_too_big. intros H. apply orb_false_iff in H. destruct H as [H H3].
  apply orb_false_iff in H. destruct H as [H1 H2]. apply Z.ltb_ge in H3. split; [|assumption].
  apply andb_false_iff in H1. destruct H1 as [H1|H1].
  - left. apply negb_false_iff in H1. now apply Z.eqb_eq.
  - right. now apply Z.ltb_ge.
Qed.

Definition place (p : plan) (j : nat) (h : N) (c : cstat) : plan :=
  upd j (fun s => set_scr (add_load s (c_series c) (c_total c)) (aset h c (scr_of s))) p.

Lemma afind_place p j k h h' (c : cstat) : (j < length p)%nat ->
  afind h' (scr_of (nth_si (place p j h c) k)) =
  if Nat.eqb j k && N.eqb h' h then Some c else afind h' (scr_of (nth_si p k)).
Proof.
  intros Hj. unfold place. rewrite nth_si_upd. destruct (Nat.eqb_spec j k) as [<-|]; [|reflexivity].
  rewrite (proj2 (Nat.ltb_lt _ _) Hj). cbn [andb scr_of set_scr si_scr]. apply afind_aset.
Qed.

(* one placement on plan p: the event it logs and the plan it leaves.  A move takes a copy that has been scraped
   min_wait times to another in-sync shard with room for it; a first assignment puts a status that alone is within the
   limits on an in-sync shard with room for it. *)
Inductive pstep (o : opts) (p : plan) : event -> plan -> Prop :=
| pstep_move kind from to h tar :
    afind h (scr_of (nth_si p from)) = Some tar -> from <> to -> si_ok (nth_si p to) = true ->
    fits_on o (nth_si p to) tar -> (min_wait <= c_times tar)%N -> kind <> First ->
    pstep o p (mk_event kind p (Some from) to h tar) (transfer p from to h)
| pstep_first to h c :
    si_ok (nth_si p to) = true -> fits_on o (nth_si p to) c -> is_too_big o c = false ->
    pstep o p (mk_event First p None to h c) (place p to h c).

Lemma pstep_at o p e p' k : pstep o p e p' ->
  si_ok (nth_si p' k) = si_ok (nth_si p k) /\ si_idle (nth_si p' k) = si_idle (nth_si p k) /\
  si_head (nth_si p' k) = si_head (nth_si p k) + (if Nat.eqb (ev_to e) k then ev_series e else 0) /\
  si_proc (nth_si p' k) = si_proc (nth_si p k) + (if Nat.eqb (ev_to e) k then ev_total e else 0) /\
  (scr_of (nth_si p' k) = scr_of (nth_si p k) \/
   exists c, scr_of (nth_si p' k) = aset (ev_hash e) c (scr_of (nth_si p k)) /\
             (ev_to e = k \/ In (ev_hash e) (keys_at p k))).
Proof.
  intros [kind from to h tar Ef Hne Hok _ _ _ | to h c Hok _ _]; cbn [mk_event ev_to ev_series ev_total ev_hash].
  - rewrite (nth_si_transfer p from to h tar k Ef (lt_of_ok p to Hok) Hne), (Nat.eqb_sym to k).
    destruct (Nat.eqb_spec k to) as [->|Hkt].
    + cbn [si_ok si_idle si_head si_proc si_scr scr_of set_scr add_load]. repeat split. right. exists tar. auto.
    + destruct (Nat.eqb_spec k from) as [->|Hkf]; cbn [si_ok si_idle si_head si_proc si_scr scr_of set_scr add_load]; rewrite !Z.add_0_r; repeat split; [|now left].
      right. exists (set_state tar InTransfer). split; [reflexivity|]. right. apply keys_at_iff. eauto.
  - unfold place. rewrite nth_si_upd. destruct (Nat.eqb_spec to k) as [->|Hne]; cbn [andb].
    + rewrite (proj2 (Nat.ltb_lt _ _) (lt_of_ok p k Hok)). cbn [si_ok si_idle si_head si_proc si_scr scr_of set_scr add_load]. repeat split. right. exists c. auto.
    + rewrite !Z.add_0_r. repeat split. now left.
Qed.

Lemma pstep_length o p e p' : pstep o p e p' -> length p' = length p.
Proof.
  intros [kind from to h tar Ef _ _ _ _ _ | to h c _ _ _]; [|apply upd_length].
  unfold transfer. rewrite Ef. now rewrite !upd_length.
Qed.

Lemma pstep_before o p e p' : pstep o p e p' ->
  ev_head_before e = si_head (nth_si p (ev_to e)) /\ ev_proc_before e = si_proc (nth_si p (ev_to e)).
Proof. intros []; split; reflexivity. Qed.

Lemma pstep_le o p e p' : pstep o p e p' -> le_plan p p'.
Proof.
  intros H. constructor.
  - symmetry. eapply pstep_length, H.
  - intros k. symmetry. apply (pstep_at o p e p' k H).
  - intros k. symmetry. apply (pstep_at o p e p' k H).
  - intros k h Hin. unfold keys_at in *.
    destruct (pstep_at o p e p' k H) as (_ & _ & _ & _ & [-> | (c & -> & _)]); [exact Hin|].
    apply In_akeys_aset. now right.
Qed.

Lemma pstep_nodup o p e p' : pstep o p e p' -> nodup_plan p -> nodup_plan p'.
Proof.
  intros H Hnd k. destruct (pstep_at o p e p' k H) as (_ & _ & _ & _ & [-> | (c & -> & _)]); [apply Hnd|].
  apply NoDup_akeys_aset, Hnd.
Qed.

Lemma pstep_gain o p e p' k h : pstep o p e p' -> In h (keys_at p' k) -> In h (keys_at p k) \/ ev_to e = k.
Proof.
  intros H Hin. unfold keys_at in *.
  destruct (pstep_at o p e p' k H) as (_ & _ & _ & _ & [E | (c & E & Hk)]); rewrite E in Hin; [now left|].
  apply In_akeys_aset in Hin. destruct Hin as [->|Hin]; [|now left]. destruct Hk; [now right | now left].
Qed.

(* runs of placements whose events all satisfy E *)
Inductive run (o : opts) (E : event -> Prop) (p : plan) : list event -> plan -> Prop :=
| run_nil : run o E p [] p
| run_snoc evs q e r : run o E p evs q -> pstep o q e r -> E e -> run o E p (evs ++ [e]) r.

Lemma run_app o E p a q b r : run o E p a q -> run o E q b r -> run o E p (a ++ b) r.
Proof.
  intros Ha Hb. induction Hb as [|evs q' e r Hb IH Hs He]; [now rewrite app_nil_r|].
  rewrite app_assoc. now apply (run_snoc o E p _ q').
Qed.

Lemma run_weaken o (E E' : event -> Prop) p evs q : (forall e, E e -> E' e) -> run o E p evs q -> run o E' p evs q.
Proof. intros HE H. induction H; econstructor; eauto. Qed.

Lemma run_all o E p evs q : run o E p evs q -> Forall E evs.
Proof. intros H. induction H; [constructor|]. apply Forall_app. split; [assumption|]. now constructor. Qed.

Lemma run_le o E p evs q : run o E p evs q -> le_plan p q.
Proof.
  intros H. induction H as [|evs q e r _ IH Hs _]; [apply le_plan_refl|].
  eapply le_plan_trans; [exact IH | eapply pstep_le, Hs].
Qed.

Lemma run_nodup o E p evs q : run o E p evs q -> nodup_plan p -> nodup_plan q.
Proof. intros H Hnd. induction H as [|evs q e r _ IH Hs _]; [exact Hnd|]. eapply pstep_nodup; eauto. Qed.

Lemma run_gain o E p evs q k h :
  run o E p evs q -> In h (keys_at q k) -> In h (keys_at p k) \/ exists e, In e evs /\ ev_to e = k.
Proof.
  intros H. induction H as [|evs q e r _ IH Hs _]; intros Hin; [now left|].
  destruct (pstep_gain o q e r k h Hs Hin) as [Hq|Hto].
  - destruct (IH Hq) as [Hp|(e' & He' & Hk)]; [now left|]. right. exists e'. split; [apply in_or_app; now left | exact Hk].
  - right. exists e. split; [apply in_or_app; right; now left | exact Hto].
Qed.

(* the placement behind the event at a given position *)
Lemma run_split o E p pre e post r :
  run o E p (pre ++ e :: post) r -> exists q q', run o E p pre q /\ pstep o q e q' /\ E e.
Proof.
  revert r. induction post as [|x post IH] using rev_ind; intros r H.
  - inversion H as [Hnil | evs q e' r' Hrun Hs He Heq]; [now destruct pre|].
    apply app_inj_tail in Heq. destruct Heq as [-> ->]. eauto.
  - inversion H as [Hnil | evs q e' r' Hrun Hs He Heq]; [now destruct pre|].
    change (pre ++ e :: post ++ [x]) with (pre ++ (e :: post) ++ [x]) in Heq. rewrite app_assoc in Heq.
    apply app_inj_tail in Heq. destruct Heq as [-> ->]. eapply IH, Hrun.
Qed.

(* folds whose state carries a plan and an event log *)
Definition grows {S} (pl : S -> plan) (ev : S -> list event) (o : opts) (E : event -> Prop) (st st' : S) : Prop :=
  exists evs, ev st' = ev st ++ evs /\ run o E (pl st) evs (pl st').

Lemma grows_same {S} (pl : S -> plan) ev o E (st st' : S) : pl st' = pl st -> ev st' = ev st -> grows pl ev o E st st'.
Proof. intros Hp He. exists []. rewrite Hp, He, app_nil_r. split; [reflexivity | constructor]. Qed.

Lemma grows_step {S} (pl : S -> plan) ev o (E : event -> Prop) (st st' : S) e :
  ev st' = ev st ++ [e] -> pstep o (pl st) e (pl st') -> E e -> grows pl ev o E st st'.
Proof. intros He Hs HE. exists [e]. split; [exact He|]. now apply (run_snoc o E _ [] (pl st)); [constructor| |]. Qed.

Lemma grows_trans {S} (pl : S -> plan) ev o E (a b c : S) :
  grows pl ev o E a b -> grows pl ev o E b c -> grows pl ev o E a c.
Proof.
  intros (x & Ex & Rx) (y & Ey & Ry). exists (x ++ y). split; [now rewrite Ey, Ex, app_assoc | eapply run_app; eauto].
Qed.

Lemma fold_grows {S B} (pl : S -> plan) ev o E (f : S -> B -> S) l st :
  (forall st b, In b l -> grows pl ev o E st (f st b)) -> grows pl ev o E st (fold_left f l st).
Proof.
  intros Hf. apply (fold_left_inv_in f (grows pl ev o E st)); [now apply grows_same|].
  intros a b Hb Ha. eapply grows_trans; [exact Ha | now apply Hf].
Qed.

Definition is_move (e : event) : Prop := ev_from e <> None.

Lemma relief_head_step_grows o k exp st h : grows rs_plan rs_events o is_move st (relief_head_step o k exp st h).
Proof.
  unfold relief_head_step.
  destruct (rs_abort st || (rs_total st <=? exp)); [now apply grows_same|].
  destruct (afind h (scr_of (nth_si (rs_plan st) k))) as [tar|] eqn:Ef; [|now apply grows_same].
  destruct (counted tar) eqn:Ecnt; cbn [negb]; [|now apply grows_same].
  destruct (max_head o <? c_series tar); [now apply grows_same|].
  destruct (first_dest _ _ _) as [j|] eqn:Ej; [|now apply grows_same].
  apply first_dest_spec in Ej. destruct Ej as (Hne & Hok & Hsite).
  eapply grows_step; [reflexivity | | discriminate].
  constructor; [exact Ef | congruence | exact Hok | now apply site_head_fits | now apply counted_times | discriminate].
Qed.

Lemma relief_proc_step_grows o k exp st h : grows rs_plan rs_events o is_move st (relief_proc_step o k exp st h).
Proof.
  unfold relief_proc_step.
  destruct (rs_abort st || (rs_total st <=? exp)); [now apply grows_same|].
  destruct (afind h (scr_of (nth_si (rs_plan st) k))) as [tar|] eqn:Ef; [|now apply grows_same].
  destruct (counted tar) eqn:Ecnt; [|rewrite orb_true_r; now apply grows_same]. rewrite orb_false_r.
  destruct (c_total tar =? 0); [now apply grows_same|].
  destruct (max_proc o <? c_total tar); [now apply grows_same|].
  destruct (first_dest _ _ _) as [j|] eqn:Ej; [|now apply grows_same].
  apply first_dest_spec in Ej. destruct Ej as (Hne & Hok & Hsite).
  eapply grows_step; [reflexivity | | discriminate].
  rewrite site_proc_relief_eq in Hsite.
  constructor; [exact Ef | congruence | exact Hok | now apply site_free_fits | now apply counted_times | discriminate].
Qed.

Lemma relief_shard_run o E step total0 exp p k s :
  (forall st h, grows rs_plan rs_events o E st (step st h)) ->
  let r := relief_shard step total0 exp p k s in run o E p (snd (fst r)) (fst (fst (fst r))).
Proof.
  intros Hs. cbn zeta. unfold relief_shard.
  destruct (total0 <=? exp); [constructor|].
  destruct (order _ s) as [keys s1]. cbn [fst snd].
  destruct (fold_grows rs_plan rs_events o E step keys {| rs_plan := p; rs_total := total0; rs_events := []; rs_abort := false |})
    as (evs & -> & R); [auto | exact R].
Qed.

Lemma pass_step_grows o E step total0 exp st k :
  (forall st h, grows rs_plan rs_events o E st (step st h)) ->
  grows ps_plan ps_events o E st
    (let '((p', need, evs), s') := relief_shard step total0 exp (ps_plan st) k (ps_sst st) in
     {| ps_plan := p'; ps_need := ps_need st + need; ps_events := ps_events st ++ evs; ps_sst := s' |}).
Proof.
  intros Hs. pose proof (relief_shard_run o E step total0 exp (ps_plan st) k (ps_sst st) Hs) as R. cbn zeta in R.
  destruct (relief_shard _ _ _ _ _ _) as [[[p' need] evs] s']. now exists evs.
Qed.

Lemma proc_pass_step_grows o st k : grows ps_plan ps_events o is_move st (proc_pass_step o st k).
Proof.
  unfold proc_pass_step. destruct (si_ok _ && _); [|now apply grows_same].
  apply pass_step_grows. apply relief_proc_step_grows.
Qed.

Lemma head_pass_step_grows o st k : grows ps_plan ps_events o is_move st (head_pass_step o st k).
Proof.
  unfold head_pass_step. destruct (si_ok _); [|now apply grows_same].
  destruct (head_threshold _ _) as [exp|]; [|now apply grows_same].
  apply pass_step_grows. apply relief_head_step_grows.
Qed.

Lemma alleviate_run o p s : let r := alleviate o p s in run o is_move p (snd (fst r)) (fst (fst (fst r))).
Proof.
  cbn zeta. unfold alleviate. destruct (disable_alleviate o); [constructor|].
  set (st0 := {| ps_plan := p; ps_need := 0; ps_events := []; ps_sst := s |}).
  pose proof (fold_grows ps_plan ps_events o is_move (proc_pass_step o) (indices p) st0
                (fun st k _ => proc_pass_step_grows o st k)) as G1.
  set (st1 := fold_left (proc_pass_step o) (indices p) st0) in *.
  destruct (max_head o =? 0); cbn [fst snd].
  - destruct G1 as (evs & -> & R). exact R.
  - set (st1' := {| ps_plan := ps_plan st1; ps_need := 0; ps_events := ps_events st1; ps_sst := ps_sst st1 |}).
    pose proof (fold_grows ps_plan ps_events o is_move (head_pass_step o) (indices p) st1'
                  (fun st k _ => head_pass_step_grows o st k)) as G2.
    destruct (grows_trans ps_plan ps_events o is_move st0 st1' _ G1 G2) as (evs & -> & R). exact R.
Qed.

(* sc: "this hash must not be first-assigned": vanished from discovery, or some shard (in sync or not) plans it *)
Definition not_assignable (active : list (N * N)) (p : plan) (h : N) : bool :=
  negb (is_active active h) || existsb (fun si => amem h (scr_of si)) p.

Definition is_first (g : N -> cstat) (sc : N -> bool) (e : event) : Prop :=
  ev_from e = None /\ ev_times e = c_times (g (ev_hash e)) /\ sc (ev_hash e) = false.

(* assignNoScrapingTargets passes over a target that is scraped, not probed healthy, or larger than a shard *)
Lemma assign_step_skip o scraped g st h :
  scraped h = true \/ health_eqb (c_health (g h)) Good = false \/ is_too_big o (g h) = true ->
  assign_step o scraped g st h = st.
Proof.
  unfold assign_step. intros [-> | [Hh | Ht]]; [reflexivity| |]; destruct (scraped h); try reflexivity.
  - now rewrite Hh.
  - destruct (negb _); [reflexivity|]. now rewrite Ht.
Qed.

(* one step of assignNoScrapingTargets leaves plan and events alone, or puts the target, with the status g gives it, on
   an in-sync shard of the plan that has room for it *)
Lemma assign_step_cases o scraped g st h :
  as_plan (assign_step o scraped g st h) = as_plan st /\ as_events (assign_step o scraped g st h) = as_events st \/
  exists j, scraped h = false /\ (j < length (as_plan st))%nat /\
    as_plan (assign_step o scraped g st h) = place (as_plan st) j h (g h) /\
    as_events (assign_step o scraped g st h) = as_events st ++ [mk_event First (as_plan st) None j h (g h)] /\
    si_ok (nth_si (as_plan st) j) = true /\ fits_on o (nth_si (as_plan st) j) (g h) /\ is_too_big o (g h) = false.
Proof.
  remember (assign_step o scraped g st h) as st' eqn:E. unfold assign_step in E.
  destruct (scraped h); [subst st'; left; split; reflexivity|].
  destruct (negb _); [subst st'; left; split; reflexivity|].
  destruct (is_too_big _ _) eqn:Etb; [subst st'; left; split; reflexivity|].
  destruct (get_free_shard _ _ _ _ _ _) as [[j|] s'] eqn:Ej; subst st'; [|left; split; reflexivity].
  right. exists j. apply get_free_shard_spec in Ej. destruct Ej as (Hj & Hok & Hsite).
  repeat split; [exact Hj | exact Hok | apply site_free_fits, Hsite | apply site_free_fits, Hsite].
Qed.

Lemma assign_step_grows o scraped sc g st h :
  (scraped h = false -> sc h = false) ->
  grows as_plan as_events o (is_first g sc) st (assign_step o scraped g st h).
Proof.
  intros Hsc. destruct (assign_step_cases o scraped g st h) as [[Ep Ee]|(j & Hs & _ & Ep & Ee & Hok & Hfit & Hbig)].
  - now apply grows_same.
  - eapply grows_step; [exact Ee | rewrite Ep; now constructor | repeat split; auto].
Qed.

Lemma assign_run o active g p s :
  let r := assign o active g p s in run o (is_first g (not_assignable active p)) p (snd (fst r)) (fst (fst (fst r))).
Proof.
  cbn zeta. unfold assign.
  pose proof (order_perm (akeys active) s) as Hperm.
  destruct (order (akeys active) s) as [keys s1]. cbn [fst snd] in *.
  match goal with |- run _ ?E _ (as_events (fold_left ?f _ ?st0)) _ =>
    destruct (fold_grows as_plan as_events o E f keys st0) as (evs & -> & R); [|exact R] end.
  intros st h Hin. apply assign_step_grows.
  intros Hs. unfold not_assignable. rewrite Hs, orb_false_r.
  apply negb_false_iff. unfold is_active. apply amem_keys.
  eapply Permutation.Permutation_in; [exact Hperm | exact Hin].
Qed.

(* what tryScaleDown's moves satisfy (become_idle_run, scale_down_moves_run): they go to shards below the one they empty *)
Definition moves_below (b : nat) (e : event) : Prop := is_move e /\ (ev_to e < b)%nat.

Lemma become_idle_step_grows o k st h : grows is_plan is_events o (moves_below k) st (become_idle_step o k st h).
Proof.
  unfold become_idle_step.
  destruct (is_failed st); [now apply grows_same|].
  destruct (afind h _) as [tar|] eqn:Ef; [|now apply grows_same].
  destruct (negb _ || _) eqn:Eyoung; [now apply grows_same|].
  apply orb_false_iff in Eyoung. destruct Eyoung as [_ Eyoung]. apply N.ltb_ge in Eyoung.
  destruct (get_free_shard _ _ _ _ _ _) as [[j|] s'] eqn:Ej; [|now apply grows_same].
  apply get_free_shard_spec in Ej. destruct Ej as (Hlt & Hok & Hsite).
  eapply grows_step; [reflexivity | | split; [discriminate | exact Hlt]].
  constructor; [exact Ef | lia | exact Hok | now apply site_free_fits | exact Eyoung | discriminate].
Qed.

Lemma become_idle_run o p k s :
  let r := become_idle o p k s in run o (moves_below k) p (snd (fst (fst r))) (fst (fst (fst r))).
Proof.
  cbn zeta. unfold become_idle. destruct (order _ s) as [keys s1]. cbn [fst snd].
  match goal with |- run _ ?E _ (is_events (fold_left ?f _ ?st0)) _ =>
    destruct (fold_grows is_plan is_events o E f keys st0) as (evs & -> & R); [|exact R] end.
  intros st h _. apply become_idle_step_grows.
Qed.

Lemma moves_below_mono o b b' p evs q : (b <= b')%nat -> run o (moves_below b) p evs q -> run o (moves_below b') p evs q.
Proof. intros Hb. apply run_weaken. intros e [Hm Hlt]. split; [exact Hm | lia]. Qed.

Lemma scale_down_moves_run o i p evs s :
  exists new, snd (fst (scale_down_moves o i p evs s)) = evs ++ new /\
              run o (moves_below i) p new (fst (fst (scale_down_moves o i p evs s))).
Proof.
  revert p evs s. induction i as [|i IH]; intros p evs s; simpl.
  { exists []. split; [now rewrite app_nil_r | constructor]. }
  destruct (si_idle (nth_si p (S i))).
  { destruct (IH p evs s) as (new & E & R). exists new. split; [exact E|]. apply (moves_below_mono o i); [lia | exact R]. }
  destruct (can_be_idle o p (S i) s) as [can s1].
  destruct (negb can). { exists []. split; [now rewrite app_nil_r | constructor]. }
  pose proof (become_idle_run o p (S i) s1) as H. cbn zeta in H.
  destruct (become_idle o p (S i) s1) as [[[p' evs'] ok] s2]. cbn [fst snd] in H.
  destruct ok; [|exists evs'; auto].
  destruct (IH p' (evs ++ evs') s2) as (new & E & R).
  exists (evs' ++ new). split; [now rewrite E, app_assoc|].
  eapply run_app; [exact H|]. apply (moves_below_mono o i); [lia | exact R].
Qed.

Lemma try_scale_down_run o p s :
  let r := try_scale_down o p s in
  run o (moves_below (pred (tail_removable o (rev p)))) p (snd (fst r)) (snd (fst (fst r))).
Proof.
  cbn zeta. unfold try_scale_down.
  destruct (scale_down_moves_run o (pred (tail_removable o (rev p))) p [] s) as (new & E & R).
  destruct (scale_down_moves _ _ _ _ _) as [[p' evs] s']. cbn [fst snd] in *. now rewrite E.
Qed.

Lemma stages_run_a o i s : let S := run_stages o i s in run o is_move (st_p1 S) (st_ev_a S) (st_p2 S).
Proof. cbn zeta. rewrite stages_p2, stages_ev_a. apply alleviate_run. Qed.

Lemma stages_run_b o i s : let S := run_stages o i s in
  run o (is_first (global_status (i_explore i) (st_p0 S)) (not_assignable (i_active i) (st_p2 S))) (st_p2 S) (st_ev_b S) (st_p3 S).
Proof. cbn zeta. rewrite stages_p3, stages_ev_b. apply assign_run. Qed.

Lemma stages_run_c o i s : let S := run_stages o i s in
  run o (moves_below (pred (tail_removable o (rev (st_p3 S))))) (st_p3 S) (st_ev_c S) (st_p4 S).
Proof.
  cbn zeta. rewrite stages_p4, stages_ev_c. unfold tail_of. destruct (negb (_ && _)); [constructor|].
  destruct (negb (max_idle o =? 0)); [apply try_scale_down_run | constructor].
Qed.

Lemma stages_run o i s : let S := run_stages o i s in
  run o (fun _ => True) (st_p1 S) (st_ev_a S ++ st_ev_b S ++ st_ev_c S) (st_p4 S).
Proof.
  cbn zeta. eapply run_app; [|eapply run_app].
  - eapply run_weaken, stages_run_a. auto.
  - eapply run_weaken, stages_run_b. auto.
  - eapply run_weaken, stages_run_c. auto.
Qed.

Lemma stages_le_12 o i s : le_plan (st_p1 (run_stages o i s)) (st_p2 (run_stages o i s)).
Proof. eapply run_le, stages_run_a. Qed.
Lemma stages_le_13 o i s : le_plan (st_p1 (run_stages o i s)) (st_p3 (run_stages o i s)).
Proof. eapply le_plan_trans; [apply stages_le_12 | eapply run_le, stages_run_b]. Qed.
Lemma stages_le_14 o i s : le_plan (st_p1 (run_stages o i s)) (st_p4 (run_stages o i s)).
Proof. eapply run_le, stages_run. Qed.

(* what holds of every event of a cycle; q: the plan the in-sync flags are read from (they never change after
   getShardInfos), g: the status a first assignment places, sc: the hashes that must not be first-assigned *)
Record ev_good (o : opts) (g : N -> cstat) (sc : N -> bool) (q : plan) (e : event) : Prop := {
  eg_ok : si_ok (nth_si q (ev_to e)) = true;
  eg_ne : ev_from e <> Some (ev_to e);
  eg_fits : ev_fits o e;
  eg_sized : ev_sized o e;
  eg_moved : ev_from e <> None -> (min_wait <= ev_times e)%N /\ ev_kind_of e <> First;
  eg_first : ev_kind_of e = First -> is_first g sc e;
}.

Lemma pstep_good o g sc q p e p' :
  le_plan q p -> pstep o p e p' -> (ev_from e = None -> is_first g sc e) -> ev_good o g sc q e.
Proof.
  intros Hle [kind from to h tar Ef Hne Hok Hfit Ht Hk | to h c Hok Hfit Hbig] HE;
    constructor; cbn [mk_event ev_to ev_from ev_kind_of ev_times ev_hash].
  - now rewrite (le_ok _ _ Hle).
  - congruence.
  - exact Hfit.
  - intros Hf. now contradiction Hk.
  - auto.
  - intros Hf. now contradiction Hk.
  - now rewrite (le_ok _ _ Hle).
  - discriminate.
  - exact Hfit.
  - intros _. now apply not_too_big.
  - intros Hf. now contradiction Hf.
  - intros _. now apply HE.
Qed.

Lemma run_good o g sc q (E : event -> Prop) p evs r :
  (forall e, E e -> ev_from e = None -> is_first g sc e) ->
  le_plan q p -> run o E p evs r -> Forall (ev_good o g sc q) evs.
Proof.
  intros HE Hle H. induction H as [|evs p' e r H IH Hs He]; [constructor|].
  apply Forall_app. split; [exact IH|]. constructor; [|constructor].
  apply (pstep_good o g sc q p' e r); [|exact Hs | now apply HE].
  eapply le_plan_trans; [exact Hle | eapply run_le, H].
Qed.

Lemma stages_events_good o i s :
  let S := run_stages o i s in
  Forall (ev_good o (global_status (i_explore i) (st_p0 S)) (not_assignable (i_active i) (st_p2 S)) (st_p1 S))
         (st_ev_a S ++ st_ev_b S ++ st_ev_c S).
Proof.
  cbn zeta. pose proof (stages_run_a o i s) as Ra. pose proof (stages_run_b o i s) as Rb.
  pose proof (stages_run_c o i s) as Rc. cbn zeta in *.
  rewrite !Forall_app. split; [|split].
  - eapply run_good; [|apply le_plan_refl | exact Ra]. intros e Hm Hn. now destruct Hm.
  - eapply run_good; [|apply stages_le_12 | exact Rb]. auto.
  - eapply run_good; [|apply stages_le_13 | exact Rc]. intros e [Hm _] Hn. now destruct Hm.
Qed.
