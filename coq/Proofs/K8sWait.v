(* Proofs/K8sWait.v — Replicas(): the two-minute wait for a StatefulSet that is complete but not ready, as the manager's
   memory implements it: the first call that sees it so remembers the instant and skips it; every later call skips it until
   120 s have passed since that instant and takes it from then on; a ready set is taken at once and the memory is kept. *)
From KV Require Import Base.Util Model.K8s.
Local Open Scope Z_scope.

Lemma rm_find_set n v st : rm_find n (rm_set n v st) = Some v.
Proof. unfold rm_set. cbn [rm_find]. now rewrite String.eqb_refl. Qed.

Lemma replicas_one_updating now st s :
  st_replicas s <> st_updated s -> replicas_one now st s = (rm_del (st_name s) st, false).
Proof. intros Hu. unfold replicas_one. now rewrite (proj2 (Z.eqb_neq _ _) Hu). Qed.

Lemma replicas_one_ready now st s :
  st_replicas s = st_updated s -> st_ready s = st_replicas s -> replicas_one now st s = (st, true).
Proof.
  intros Hu Hr. unfold replicas_one. rewrite (proj2 (Z.eqb_eq _ _) Hu), (proj2 (Z.eqb_eq _ _) Hr). cbn [negb andb].
  destruct (rm_find (st_name s) st) as [t|] eqn:E; now rewrite E.
Qed.

Lemma replicas_one_not_ready now st s :
  st_replicas s = st_updated s -> st_ready s <> st_replicas s ->
  replicas_one now st s =
  match rm_find (st_name s) st with
  | Some t => (st, negb (now - t <? wait_seconds))
  | None => (rm_set (st_name s) now st, negb (now - now <? wait_seconds))
  end.
Proof.
  intros Hu Hr. unfold replicas_one. rewrite (proj2 (Z.eqb_eq _ _) Hu), (proj2 (Z.eqb_neq _ _) Hr). cbn [negb andb].
  destruct (rm_find (st_name s) st) as [t|] eqn:E; [now rewrite E | now rewrite rm_find_set].
Qed.

Theorem not_ready_is_waited_for now st s :
  st_replicas s = st_updated s -> st_ready s <> st_replicas s ->
  let first := match rm_find (st_name s) st with None => now | Some t => t end in
  snd (replicas_one now st s) = negb (now - first <? wait_seconds) /\
  rm_find (st_name s) (fst (replicas_one now st s)) = Some first.
Proof.
  intros Hu Hr. cbn zeta. rewrite (replicas_one_not_ready now st s Hu Hr).
  destruct (rm_find (st_name s) st) as [t|] eqn:E; cbn [fst snd]; [auto | split; [reflexivity | apply rm_find_set]].
Qed.

Theorem ready_is_taken_at_once now st s :
  st_replicas s = st_updated s -> st_ready s = st_replicas s ->
  snd (replicas_one now st s) = true /\ fst (replicas_one now st s) = st.
Proof. intros Hu Hr. now rewrite (replicas_one_ready now st s Hu Hr). Qed.

Theorem updating_is_skipped_and_forgotten now st s :
  st_replicas s <> st_updated s ->
  snd (replicas_one now st s) = false /\ fst (replicas_one now st s) = rm_del (st_name s) st.
Proof. intros Hu. now rewrite (replicas_one_updating now st s Hu). Qed.
