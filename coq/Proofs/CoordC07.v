(* Proofs/CoordC07.v — C07: the scale requests of a cycle are the early raise to min-shard and the clamped planned scale
   (scales_in); they stay within the bounds, and none removes a shard that is still in use. *)
From KV Require Import Base.Util Base.AMap Base.Sched Model.Coordinator Model.CoordCheck Proofs.CoordBasics
  Proofs.CoordEvents.
Local Open Scope list_scope.
Local Open Scope Z_scope.

Lemma early_scale_in o i r : In r (early_scale o i) -> r = min_shard o /\ Z.of_nat (length (i_shards i)) < min_shard o.
Proof. unfold early_scale. destruct (Z.ltb_spec (Z.of_nat (length (i_shards i))) (min_shard o)); [intros [<-|[]]; auto | intros []]. Qed.

(* the requests of a cycle: the early raise to min-shard, and the planned scale, clamped *)
Lemma scales_in o i sch r : In r (o_scales (cycle o i sch)) ->
  (r = min_shard o /\ Z.of_nat (length (i_shards i)) < min_shard o) \/
  (mode_of o i (sst_of sch) = MNormal /\ r = clamp o (st_scale (run_stages o i (sst_of sch)))).
Proof.
  rewrite o_scales_cycle. intros H. apply in_app_or in H. destruct H as [H|H].
  - left. now apply early_scale_in.
  - right. destruct (mode_of _ _ _); [destruct H | destruct H |]. destruct H as [<-|[]]. auto.
Qed.

Theorem c07_bounds o i sch r :
  min_shard o <= max_shard o -> In r (o_scales (cycle o i sch)) -> min_shard o <= r <= max_shard o.
Proof.
  intros Hmm H. destruct (scales_in o i sch r H) as [[-> _]|[_ ->]]; [lia | rewrite clamp_spec; lia].
Qed.

Lemma clamp_ge o x y : y <= max_shard o -> y <= x -> y <= clamp o x.
Proof. rewrite clamp_spec. lia. Qed.

(* the early request, when issued, raises the count *)
Theorem c07_early_raises o i sch r rest :
  o_scales (cycle o i sch) = r :: rest -> rest <> [] \/ o_skipped (cycle o i sch) = true ->
  Z.of_nat (length (i_shards i)) < r.
Proof.
  rewrite o_scales_cycle, o_skipped_cycle. unfold early_scale.
  generalize (clamp o (st_scale (run_stages o i (sst_of sch)))) (mode_of o i (sst_of sch)). intros c m.
  destruct (Z.ltb_spec (Z.of_nat (length (i_shards i))) (min_shard o)) as [Hlt|_]; cbn [app].
  - intros [= <- _] _. exact Hlt.
  - destruct m; [discriminate | discriminate |].
    intros [= _ <-] [H|H]; [now contradiction H | discriminate].
Qed.

(* tryScaleDown's first loop stops at the last shard that cannot be removed *)
Lemma tail_removable_ge o l k :
  (k < length l)%nat -> removable o (nth k l dflt) = false -> (S k <= tail_removable o (rev l))%nat.
Proof.
  induction l as [|x l' IH] using rev_ind; intros Hk Hr; [simpl in Hk; lia|].
  rewrite rev_app_distr. cbn [rev app tail_removable]. rewrite app_length in Hk. cbn [length] in Hk.
  destruct (Nat.eq_dec k (length l')) as [->|Hne].
  - rewrite app_nth2, Nat.sub_diag in Hr by lia. cbn [nth] in Hr. rewrite Hr. cbn [length]. rewrite rev_length. lia.
  - assert (Hk' : (k < length l')%nat) by lia. rewrite app_nth1 in Hr by exact Hk'.
    destruct (removable o x); [now apply IH|]. cbn [length]. rewrite rev_length. lia.
Qed.

Lemma tail_removable_le o l : (tail_removable o l <= length l)%nat.
Proof. induction l as [|x t IH]; simpl; [lia|]. destruct (removable o x); lia. Qed.

Lemma try_scale_down_scale o p s : fst (fst (fst (try_scale_down o p s))) = Z.of_nat (tail_removable o (rev p)).
Proof. unfold try_scale_down. now destruct (scale_down_moves _ _ _ _ _) as [[p' evs] s']. Qed.

Lemma p3_length o i s : length (st_p3 (run_stages o i s)) = length (i_shards i).
Proof. rewrite <- (le_len _ _ (stages_le_13 o i s)). apply p1_length. Qed.

Lemma p3_ok o i s k : si_ok (nth_si (st_p3 (run_stages o i s)) k) = insync i k.
Proof. rewrite <- (le_ok _ _ (stages_le_13 o i s)). apply p1_flags. Qed.
Lemma p3_idle o i s k : si_idle (nth_si (st_p3 (run_stages o i s)) k) = si_idle (info_at i k).
Proof. rewrite <- (le_idle _ _ (stages_le_13 o i s)). apply p1_flags. Qed.

(* the scale the planning arrives at (before clamping) keeps every shard that cannot be removed ... *)
Lemma tail_of_keeps_nonremovable o p3 need s2 k :
  (k < length p3)%nat -> removable o (nth_si p3 k) = false ->
  Z.of_nat (S k) <= fst (fst (fst (tail_of o p3 need s2))).
Proof.
  intros Hk Hr. unfold tail_of. destruct (negb (_ && _)); cbn [fst]; [unfold try_scale_up; lia|].
  destruct (negb (max_idle o =? 0)); cbn [fst]; [|lia].
  rewrite try_scale_down_scale. apply inj_le. rewrite nth_si_eq in Hr. now apply tail_removable_ge.
Qed.

Lemma scale_keeps_nonremovable o i s k :
  (k < length (i_shards i))%nat -> removable o (nth_si (st_p3 (run_stages o i s)) k) = false ->
  Z.of_nat (S k) <= st_scale (run_stages o i s).
Proof.
  intros Hk Hr. rewrite stages_scale. apply tail_of_keeps_nonremovable; [now rewrite p3_length | exact Hr].
Qed.

(* ... and every shard that was given a target by tryScaleDown's own moves: they go below the shards it keeps *)
Lemma tail_of_keeps_dest o p3 need s2 e :
  In e (snd (fst (tail_of o p3 need s2))) -> (ev_to e < pred (tail_removable o (rev p3)))%nat ->
  Z.of_nat (S (ev_to e)) <= fst (fst (fst (tail_of o p3 need s2))).
Proof.
  unfold tail_of. destruct (negb (_ && _)); cbn [fst snd]; [intros []|].
  destruct (negb (max_idle o =? 0)); cbn [fst snd]; [|intros []].
  intros _ Hlt. rewrite try_scale_down_scale. lia.
Qed.

Lemma scale_keeps_gained o i s k h :
  In h (keys_at (st_p4 (run_stages o i s)) k) -> ~ In h (keys_at (st_p3 (run_stages o i s)) k) ->
  Z.of_nat (S k) <= st_scale (run_stages o i s).
Proof.
  intros Hin Hnot. pose proof (stages_run_c o i s) as R. cbn zeta in R.
  destruct (run_gain _ _ _ _ _ k h R Hin) as [H|(e & He & Hto)]; [contradiction|].
  pose proof (run_all _ _ _ _ _ R) as A. rewrite Forall_forall in A. destruct (A e He) as [_ Hlt]. clear R A Hin Hnot.
  rewrite stages_ev_c in He. rewrite stages_scale, <- Hto. exact (tail_of_keeps_dest o _ _ _ e He Hlt).
Qed.

Lemma nonempty_not_removable o s h : In h (akeys (scr_of s)) -> removable o s = false.
Proof. unfold removable. destruct (scr_of s); [intros []|]. intros _. now rewrite andb_false_r. Qed.

(* a shard is in use: not in sync, never idle or idle for no longer than max-idle-time, or holding a target when the
   planning of this cycle ends (it held one and kept it, or was given one by relief, assignment or a scale-down move) *)
Lemma used_scale o i s k :
  (k < length (i_shards i))%nat ->
  (insync i k = false \/ si_idle (info_at i k) = None \/
   (exists age, si_idle (info_at i k) = Some age /\ age <= max_idle o) \/
   keys_at (st_p4 (run_stages o i s)) k <> []) ->
  Z.of_nat (S k) <= st_scale (run_stages o i s).
Proof.
  intros Hk [H|[H|[[age [H Ha]]|H]]].
  - apply scale_keeps_nonremovable; [exact Hk|]. unfold removable. now rewrite p3_ok, H.
  - apply scale_keeps_nonremovable; [exact Hk|]. unfold removable. rewrite p3_idle, H. now rewrite andb_false_r.
  - apply scale_keeps_nonremovable; [exact Hk|]. unfold removable. rewrite p3_idle, H.
    rewrite (proj2 (Z.ltb_ge _ _) Ha). now rewrite andb_false_r.
  - destruct (keys_at (st_p4 (run_stages o i s)) k) as [|h t] eqn:Ek; [contradiction|].
    assert (Hin : In h (keys_at (st_p4 (run_stages o i s)) k)) by (rewrite Ek; left; reflexivity).
    destruct (in_dec N.eq_dec h (keys_at (st_p3 (run_stages o i s)) k)) as [H3|H3].
    + apply scale_keeps_nonremovable; [exact Hk|]. exact (nonempty_not_removable o _ h H3).
    + exact (scale_keeps_gained o i s k h Hin H3).
Qed.

Theorem c07_keeps_used o i sch r k :
  Z.of_nat (length (i_shards i)) <= max_shard o ->
  In r (o_scales (cycle o i sch)) ->
  (k < length (i_shards i))%nat ->
  (insync i k = false \/ si_idle (info_at i k) = None \/
   (exists age, si_idle (info_at i k) = Some age /\ age <= max_idle o) \/
   keys_at (o_plan (cycle o i sch)) k <> []) ->
  Z.of_nat (S k) <= r.
Proof.
  intros Hmax Hr Hk Hu. destruct (scales_in o i sch r Hr) as [[-> Hlt]|[Hm ->]]; [lia|].
  rewrite o_plan_cycle, Hm in Hu. apply clamp_ge; [lia|]. now apply used_scale.
Qed.

Lemma tail_of_no_shrink o p3 need s2 :
  max_idle o = 0 \/ need <> (0, 0) -> Z.of_nat (length p3) <= fst (fst (fst (tail_of o p3 need s2))).
Proof.
  intros Hc. unfold tail_of. destruct ((fst need =? 0) && (snd need =? 0)) eqn:En; cbn [negb fst].
  2:{ unfold try_scale_up. lia. }
  destruct (Z.eqb_spec (max_idle o) 0) as [E|E]; cbn [negb fst]; [lia|]. exfalso.
  destruct Hc as [Hc|Hc]; [contradiction|]. apply Hc.
  apply andb_true_iff in En. destruct En as [E1 E2]. apply Z.eqb_eq in E1, E2. destruct need. cbn in *. congruence.
Qed.

(* no request is below the current count when max-idle-time is 0 or more space is needed *)
Theorem c07_no_shrink o i sch r :
  Z.of_nat (length (i_shards i)) <= max_shard o ->
  In r (o_scales (cycle o i sch)) ->
  max_idle o = 0 \/ st_need (run_stages o i (sst_of sch)) <> (0, 0) ->
  Z.of_nat (length (i_shards i)) <= r.
Proof.
  intros Hmax Hr Hc. destruct (scales_in o i sch r Hr) as [[-> Hlt]|[_ ->]]; [lia|].
  apply clamp_ge; [exact Hmax|]. rewrite <- (p3_length o i (sst_of sch)), stages_scale. now apply tail_of_no_shrink.
Qed.

(* a shard that reports targets is never idle in a consistent report (C10: idle-since is set only while nothing is
   assigned), hence kept *)
Corollary c07_holding_kept o i sch r k :
  Z.of_nat (length (i_shards i)) <= max_shard o ->
  In r (o_scales (cycle o i sch)) ->
  (k < length (i_shards i))%nat ->
  reported i k <> [] -> (forall age, si_idle (info_at i k) = Some age -> reported i k = []) ->
  Z.of_nat (S k) <= r.
Proof.
  intros Hmax Hr Hk Hrep Hcons. apply (c07_keeps_used o i sch r k Hmax Hr Hk). right. left.
  destruct (si_idle (info_at i k)) as [age|] eqn:E; [|reflexivity]. exfalso. apply Hrep. now apply (Hcons age).
Qed.
