(* Proofs/SidecarProofs.v — lemmas about Model/Sidecar.v: C10 (update, restart, idle instant, store; the invariant wf and
   ops_keep, the form in which the world proofs lift a sidecar invariant), C13 (counter and health after a scrape),
   C14 (window, runtime info, /samples/), C11 (injected_spec: the generated file lists the assignment). *)
From KV Require Import Base.Util Base.AMap Model.Coordinator Model.Sidecar Model.SidecarCheck.
Local Open Scope list_scope.
Local Open Scope Z_scope.

Definition hashes (a : assignment) : list N := map t_hash (all_targets a).

(* the entry a target gets in an update, as a function of the previous status map *)
Definition entry_for (old : amap sstat) (t : tgt) : sstat :=
  let base := match afind (t_hash t) old with None => new_sstat (t_series t) (t_total t) | Some s => s end in
  {| ss_state := t_state t; ss_health := ss_health base; ss_series := ss_series base; ss_total := ss_total base;
     ss_times := if tstate_eqb (ss_state base) Normal && tstate_eqb (t_state t) InTransfer then 0%N else ss_times base;
     ss_window := ss_window base; ss_err := ss_err base; ss_last := ss_last base |}.

Lemma visit_fresh old new t : ~ In (t_hash t) (akeys new) -> visit old new t = aset (t_hash t) (entry_for old t) new.
Proof.
  intros Hn. unfold visit, entry_for. apply afind_none_keys in Hn.
  destruct (afind (t_hash t) old); [rewrite Hn|]; reflexivity.
Qed.

Lemma fold_visit_keys old l : forall acc h,
  In h (akeys (fold_left (visit old) l acc)) <-> In h (akeys acc) \/ In h (map t_hash l).
Proof.
  induction l as [|t r IH]; intros acc h; simpl; [split; [now left | intros [H|[]]; exact H]|]. split; intros H.
  - apply IH in H. destruct H as [H|H]; [|right; now right].
    apply In_akeys_aset in H. destruct H as [->|H]; [right; now left | now left].
  - apply IH. destruct H as [H|[<-|H]]; [left; apply In_akeys_aset; now right | left; apply In_akeys_aset; now left | now right].
Qed.

Lemma update_status_keys old req h : In h (akeys (update_status old req)) <-> In h (hashes req).
Proof. unfold update_status, hashes. rewrite fold_visit_keys. simpl. tauto. Qed.

Lemma fold_visit old l acc :
  NoDup (map t_hash l) -> (forall t, In t l -> ~ In (t_hash t) (akeys acc)) ->
  let r := fold_left (visit old) l acc in
  akeys r = akeys acc ++ map t_hash l /\
  (forall t, In t l -> afind (t_hash t) r = Some (entry_for old t)) /\
  (forall h, In h (akeys acc) -> afind h r = afind h acc).
Proof.
  revert acc. induction l as [|t l IH]; intros acc Hnd Hdis; cbn zeta; simpl.
  - rewrite app_nil_r. repeat split; auto. intros t [].
  - inversion Hnd as [|? ? Ht Hl]; subst.
    assert (Hfresh : ~ In (t_hash t) (akeys acc)) by (apply Hdis; now left).
    rewrite visit_fresh by assumption.
    destruct (IH (aset (t_hash t) (entry_for old t) acc) Hl) as [Hk [Hf Hacc]].
    { intros t' Hin Hc. apply In_akeys_aset in Hc. destruct Hc as [Hc|Hc].
      - apply Ht. rewrite <- Hc. now apply in_map.
      - apply (Hdis t'); [now right | assumption]. }
    cbn zeta in *. split; [|split].
    + rewrite Hk, akeys_aset_notin by assumption. now rewrite <- app_assoc.
    + intros t' [<-|Hin]; [|now apply Hf].
      rewrite Hacc; [apply afind_aset_eq | apply In_akeys_aset; now left].
    + intros h Hin. rewrite Hacc; [|apply In_akeys_aset; now right].
      apply afind_aset_neq. intros <-. contradiction.
Qed.

(* C10: after an update, exactly one entry per assigned hash, in request order, each in the requested state and
   with the retained / initial statistics *)
Theorem update_status_spec old req :
  NoDup (hashes req) ->
  akeys (update_status old req) = hashes req /\
  forall t, In t (all_targets req) -> afind (t_hash t) (update_status old req) = Some (entry_for old t).
Proof.
  intros Hnd. unfold update_status.
  destruct (fold_visit old (all_targets req) [] Hnd) as [Hk [Hf _]]; [intros t _ []|].
  cbn zeta in *. split; [exact Hk | exact Hf].
Qed.

Lemma update_status_find old req h e : NoDup (hashes req) ->
  afind h (update_status old req) = Some e <->
  exists t, In t (all_targets req) /\ t_hash t = h /\ e = entry_for old t.
Proof.
  intros Hnd. destruct (update_status_spec old req Hnd) as [_ Hf]. split.
  - intros He. assert (Hin : In h (hashes req)) by (apply (proj1 (update_status_keys old req h)), afind_some_keys; eauto).
    apply in_map_iff in Hin. destruct Hin as [t [<- Hin]]. rewrite (Hf t Hin) in He. injection He as <-. eauto.
  - intros [t [Hin [<- ->]]]. now apply Hf.
Qed.

Lemma entry_for_new old t : afind (t_hash t) old = None ->
  entry_for old t = {| ss_state := t_state t; ss_health := Unknown; ss_series := t_series t; ss_total := t_total t;
                       ss_times := 0; ss_window := []; ss_err := false; ss_last := None |}.
Proof. intros H. unfold entry_for. rewrite H. simpl. now destruct (t_state t). Qed.

Lemma entry_for_kept old t s : afind (t_hash t) old = Some s ->
  let e := entry_for old t in
  ss_state e = t_state t /\ ss_health e = ss_health s /\ ss_series e = ss_series s /\ ss_total e = ss_total s /\
  ss_window e = ss_window s /\ ss_err e = ss_err s /\
  (ss_times e = 0%N /\ ss_state s = Normal /\ t_state t = InTransfer \/
   ss_times e = ss_times s /\ ~ (ss_state s = Normal /\ t_state t = InTransfer)).
Proof.
  intros H. unfold entry_for. rewrite H. cbn. repeat split.
  destruct (ss_state s), (t_state t); cbn; auto; right; split; auto; intros [? ?]; discriminate.
Qed.

Lemma entry_for_same old t e : afind (t_hash t) old = Some e -> ss_state e = t_state t -> entry_for old t = e.
Proof.
  intros Ha Hs. unfold entry_for. rewrite Ha. destruct e as [st hl se to ti wi er la]. cbn in *. subst st.
  f_equal. destruct (t_state t); reflexivity.
Qed.

Lemma update_status_idem old req :
  NoDup (hashes req) ->
  (forall t, In t (all_targets req) -> exists e, afind (t_hash t) old = Some e /\ ss_state e = t_state t) ->
  (forall h, In h (akeys old) -> In h (hashes req)) ->
  forall h, afind h (update_status old req) = afind h old.
Proof.
  intros Hnd Hreq Hold h. destruct (in_dec N.eq_dec h (hashes req)) as [Hin|Hout].
  - apply in_map_iff in Hin. destruct Hin as [t [<- Hin]]. destruct (Hreq t Hin) as [e [He Hs]].
    rewrite He. apply update_status_find; [exact Hnd|]. exists t. now rewrite (entry_for_same old t e He Hs).
  - transitivity (@None sstat); [|symmetry]; apply afind_none_keys; [now rewrite update_status_keys | auto].
Qed.

Lemma update_idle_spec status idle now :
  (status = [] -> update_idle status idle now = match idle with Some t => Some t | None => Some now end) /\
  (status <> [] -> update_idle status idle now = None).
Proof. unfold update_idle. destruct status; split; intros H; congruence. Qed.

Lemma update_idle_none status idle now : status = [] <-> update_idle status idle now <> None.
Proof. destruct status, idle; cbn; split; congruence. Qed.

Lemma do_update_targets s req now ok : sc_targets (fst (do_update s req now ok)) = req.
Proof. now destruct ok. Qed.
Lemma do_update_status s req now ok : sc_status (fst (do_update s req now ok)) = update_status (sc_status s) req.
Proof. now destruct ok. Qed.
Lemma do_update_idle s req now ok :
  sc_idle (fst (do_update s req now ok)) = update_idle (update_status (sc_status s) req) (sc_idle s) now.
Proof. now destruct ok. Qed.
Lemma do_update_store s req now ok :
  sc_store (fst (do_update s req now ok)) =
  if ok then Some (req, update_idle (update_status (sc_status s) req) (sc_idle s) now) else sc_store s.
Proof. now destruct ok. Qed.

Lemma do_restart_stored s a idl now : sc_store s = Some (a, idl) ->
  do_restart s now = {| sc_targets := a; sc_status := update_status [] a;
                        sc_idle := update_idle (update_status [] a) idl now;
                        sc_store := Some (a, update_idle (update_status [] a) idl now) |}.
Proof. intros E. unfold do_restart. rewrite E. reflexivity. Qed.

Lemma do_scrape_entry s h r stopped h' :
  afind h' (sc_status (do_scrape s h r stopped)) =
  option_map (fun e => if N.eqb h h' then scrape_status e r stopped else e) (afind h' (sc_status s)).
Proof.
  unfold do_scrape. rewrite (N.eqb_sym h). destruct (afind h (sc_status s)) as [st|] eqn:E; cbn [sc_status].
  - (* h is assigned: its entry is replaced, the others are looked up as before *)
    rewrite afind_aset. destruct (N.eqb_spec h' h) as [->|]; [now rewrite E|]. now destruct (afind h' (sc_status s)).
  - (* h is not assigned: nothing changes, and h' = h finds nothing on either side *)
    destruct (N.eqb_spec h' h) as [->|]; [now rewrite E|]. now destruct (afind h' (sc_status s)).
Qed.

Lemma do_scrape_keys s h r stopped : akeys (sc_status (do_scrape s h r stopped)) = akeys (sc_status s).
Proof.
  unfold do_scrape. destruct (afind h (sc_status s)) eqn:E; [|reflexivity]. cbn.
  apply akeys_aset_in. apply afind_some_keys. eauto.
Qed.
Lemma do_scrape_targets s h r stopped : sc_targets (do_scrape s h r stopped) = sc_targets s.
Proof. unfold do_scrape. destruct (afind h (sc_status s)); reflexivity. Qed.
Lemma do_scrape_store s h r stopped : sc_store (do_scrape s h r stopped) = sc_store s.
Proof. unfold do_scrape. destruct (afind h (sc_status s)); reflexivity. Qed.
Theorem idle_scrape s h r stopped : sc_idle (do_scrape s h r stopped) = sc_idle s.
Proof. unfold do_scrape. destruct (afind h (sc_status s)); reflexivity. Qed.

(* health and counter after one proxied scrape of an assigned target (C13, bookkeeping part) *)
Theorem scrape_status_spec st r stopped :
  let st' := scrape_status st r stopped in
  ss_times st' = (ss_times st + 1)%N /\ ss_state st' = ss_state st /\
  (ss_health st' = Good <-> (exists a b, r = ScrOk a b) /\ stopped = false) /\
  (ss_health st' = Bad <-> ss_err st' = true) /\ ss_health st' <> Unknown.
Proof.
  cbn zeta. destruct r as [a b|], stopped; cbn; repeat split; try discriminate; try tauto; eauto;
    try (intros [[? [? ?]] ?]; discriminate); try (intros [? ?]; discriminate).
Qed.

Record wf (s : sidecar) : Prop := {
  wf_nodup : NoDup (hashes (sc_targets s));
  wf_keys : akeys (sc_status s) = hashes (sc_targets s);
  wf_state : forall t, In t (all_targets (sc_targets s)) ->
             exists st, afind (t_hash t) (sc_status s) = Some st /\ ss_state st = t_state t;
  wf_idle : sc_status s = [] <-> sc_idle s <> None;
  wf_store : match sc_store s with Some (a, _) => NoDup (hashes a) | None => True end;
}.

Definition op_unique (op : sc_op) : Prop :=
  match op with OpUpdate req _ _ => NoDup (hashes req) | _ => True end.

Lemma wf_keys_nodup s : wf s -> NoDup (akeys (sc_status s)).
Proof. intros W. rewrite (wf_keys s W). apply (wf_nodup s W). Qed.

Lemma wf_do_update s req now ok :
  NoDup (hashes req) -> match sc_store s with Some (a, _) => NoDup (hashes a) | None => True end ->
  wf (fst (do_update s req now ok)).
Proof.
  intros Hnd Hst. destruct (update_status_spec (sc_status s) req Hnd) as [Hk Hf].
  constructor; rewrite ?do_update_targets, ?do_update_status, ?do_update_idle, ?do_update_store.
  - exact Hnd.
  - exact Hk.
  - intros t Hin. exists (entry_for (sc_status s) t). split; [now apply Hf|reflexivity].
  - apply update_idle_none.
  - now destruct ok.
Qed.

Lemma akeys_aset_same {V} h (v : V) m : In h (akeys m) -> akeys (aset h v m) = akeys m.
Proof. apply akeys_aset_in. Qed.

Lemma wf_do_scrape s h r stopped : wf s -> wf (do_scrape s h r stopped).
Proof.
  intros W. constructor; rewrite ?do_scrape_keys, ?do_scrape_targets, ?do_scrape_store, ?idle_scrape; try apply W.
  - intros t Ht. destruct (wf_state s W t Ht) as [st [Hf Hs]]. rewrite do_scrape_entry, Hf. cbn.
    eexists. split; [reflexivity|]. destruct (N.eqb h (t_hash t)); [|exact Hs].
    destruct (scrape_status_spec st r stopped) as (_ & -> & _). exact Hs.
  - rewrite <- (wf_idle s W), <- !akeys_nil, do_scrape_keys. reflexivity.
Qed.

Lemma wf_do_restart s now : wf s -> wf (do_restart s now).
Proof.
  intros W. unfold do_restart. pose proof (wf_store s W) as Hs.
  destruct (sc_store s) as [[a idl]|]; cbn [fst snd]; apply wf_do_update; cbn [sc_store].
  - exact Hs.
  - exact Hs.
  - constructor.
  - exact I.
Qed.

(* the bare constructor state is not a served state: cmd/kvass/sidecar.go always calls Load() first *)
Lemma wf_start now0 : wf (sidecar_start now0).
Proof. apply wf_do_update; cbn; [constructor | exact I]. Qed.

(* what the closed loop does to a sidecar: start it, send it acknowledged updates of some kind U, let it scrape with
   results res, restart it; a property all four keep is kept by every step of every world (Proofs/WorldProofs.v) *)
Record ops_keep (U : assignment -> Prop) (res : N -> scrape_result) (R : sidecar -> Prop) : Prop := {
  ok_start : forall now, R (sidecar_start now);
  ok_update : forall sc req now, R sc -> U req -> R (fst (do_update sc req now true));
  ok_scrape : forall sc h, R sc -> R (do_scrape sc h (res h) false);
  ok_restart : forall sc now, R sc -> R (do_restart sc now);
}.

Lemma wf_ops res : ops_keep (fun req => NoDup (hashes req)) res wf.
Proof.
  constructor.
  - apply wf_start.
  - intros sc req now W U. apply wf_do_update; [exact U | apply W].
  - intros sc h. apply wf_do_scrape.
  - intros sc now. apply wf_do_restart.
Qed.

(* the store file holds what is in memory: so it is after every acknowledged update, hence after every restart *)
Definition stored (sc : sidecar) : Prop := sc_store sc = Some (sc_targets sc, sc_idle sc).

Lemma stored_ops res : ops_keep (fun _ => True) res stored.
Proof.
  constructor; try reflexivity. intros sc h H. unfold stored. now rewrite do_scrape_store, do_scrape_targets, idle_scrape.
Qed.

Theorem wf_reachable now0 ops : Forall op_unique ops -> wf (sc_run (sidecar_start now0) ops).
Proof.
  intros U. rewrite Forall_forall in U. unfold sc_run. apply fold_left_inv_in; [apply wf_start|].
  intros s op Hin W. specialize (U op Hin).
  destruct op; [apply wf_do_update; [exact U | apply W] | now apply wf_do_scrape | now apply wf_do_restart].
Qed.

(* the idle instant: set when the assignment becomes empty, kept while it stays empty, cleared when a target arrives *)
Theorem idle_update s req now ok :
  let s' := fst (do_update s req now ok) in
  (sc_status s' = [] -> sc_idle s' = match sc_idle s with Some t => Some t | None => Some now end) /\
  (sc_status s' <> [] -> sc_idle s' = None).
Proof. cbn zeta. rewrite do_update_status, do_update_idle. apply update_idle_spec. Qed.

(* after an acknowledged update the store holds exactly the assignment and idle instant in memory *)
Theorem store_after_ack s req now :
  let s' := fst (do_update s req now true) in sc_store s' = Some (sc_targets s', sc_idle s') /\ sc_targets s' = req.
Proof. cbn. auto. Qed.

(* a restart resumes the stored assignment; an idle instant recorded with an empty assignment survives it *)
Theorem restart_resumes s a idl now :
  sc_store s = Some (a, idl) -> NoDup (hashes a) ->
  let s' := do_restart s now in
  sc_targets s' = a /\ akeys (sc_status s') = hashes a /\
  (forall t, In t (all_targets a) ->
     afind (t_hash t) (sc_status s') =
     Some {| ss_state := t_state t; ss_health := Unknown; ss_series := t_series t; ss_total := t_total t;
             ss_times := 0; ss_window := []; ss_err := false; ss_last := None |}) /\
  (all_targets a = [] -> forall t, idl = Some t -> sc_idle s' = Some t) /\
  (all_targets a <> [] -> sc_idle s' = None).
Proof.
  intros Hs Hnd. cbn zeta. rewrite (do_restart_stored s a idl now Hs). cbn [sc_targets sc_status sc_idle].
  destruct (update_status_spec [] a Hnd) as [Hk Hf].
  split; [reflexivity|]. split; [exact Hk|]. split; [|split].
  - intros t Hin. rewrite (Hf t Hin). now rewrite entry_for_new.
  - intros He t ->. unfold update_status. rewrite He. reflexivity.
  - intros Hne. apply update_idle_spec. intros E. apply Hne. rewrite E in Hk.
    symmetry in Hk. now apply map_eq_nil in Hk.
Qed.

(* a scrape round: every listed target is scraped n times, each with its own result *)
Definition scrape_round {A} (res : N -> scrape_result) (n : nat) (l : list (N * A)) (sc : sidecar) : sidecar :=
  fold_left (fun sc kv => fold_left (fun sc (_ : nat) => do_scrape sc (fst kv) (res (fst kv)) false) (seq 0 n) sc) l sc.

Lemma scrape_round_inv {A} (P : sidecar -> Prop) res n (l : list (N * A)) sc :
  (forall sc h, P sc -> P (do_scrape sc h (res h) false)) -> P sc -> P (scrape_round res n l sc).
Proof. intros Hstep H. unfold scrape_round. apply fold_left_inv; [exact H|]. intros a kv Ha. apply fold_left_inv; auto. Qed.

Definition counts_of (sc : sidecar) (h : N) : option (N * tstate) :=
  option_map (fun e => (ss_times e, ss_state e)) (afind h (sc_status sc)).
Definition bump (b : bool) (k : N) (ts : N * tstate) : N * tstate := (if b then (fst ts + k)%N else fst ts, snd ts).

Lemma counts_do_scrape sc h r stopped h' :
  counts_of (do_scrape sc h r stopped) h' = option_map (bump (N.eqb h h') 1) (counts_of sc h').
Proof.
  unfold counts_of, bump. rewrite do_scrape_entry. destruct (afind h' (sc_status sc)) as [e|]; [|reflexivity].
  cbn. destruct (N.eqb h h'); [|reflexivity]. now destruct (scrape_status_spec e r stopped) as (-> & -> & _).
Qed.

Lemma repeat_scrape_counts h r n : forall a sc h',
  counts_of (fold_left (fun sc0 (_ : nat) => do_scrape sc0 h r false) (seq a n) sc) h' =
  option_map (bump (N.eqb h h') (N.of_nat n)) (counts_of sc h').
Proof.
  induction n as [|n IH]; intros a sc h'; cbn [seq fold_left]; [|rewrite IH, counts_do_scrape];
    (destruct (counts_of sc h') as [[t st]|]; [|reflexivity]); unfold bump; cbn;
    (destruct (N.eqb h h'); [f_equal; f_equal; lia|reflexivity]).
Qed.

Lemma scrape_round_counts_of {A} res n : forall (l : list (N * A)) sc h', NoDup (map fst l) ->
  counts_of (scrape_round res n l sc) h' =
  option_map (bump (existsb (N.eqb h') (map fst l)) (N.of_nat n)) (counts_of sc h').
Proof.
  unfold scrape_round. induction l as [|[h e] r IH]; intros sc h' Hnd; cbn [fold_left map fst existsb].
  - now destruct (counts_of sc h') as [[t st]|].
  - apply NoDup_cons_iff in Hnd. destruct Hnd as [Hn Hr].
    rewrite IH, repeat_scrape_counts by exact Hr.
    destruct (counts_of sc h') as [[t st]|]; [|reflexivity]. unfold bump. cbn. rewrite (N.eqb_sym h' h).
    destruct (N.eqb_spec h h') as [<-|Hne]; [|reflexivity].
    (* h is scraped in this step and, the keys being distinct, in no later one *)
    replace (existsb (N.eqb h) (map fst r)) with false; [reflexivity|].
    symmetry. apply Bool.not_true_iff_false. now rewrite existsb_eqb_in.
Qed.

Definition lastn {A} (n : nat) (l : list A) : list A := skipn (length l - n) l.

Lemma push_window_lastn l x : push_window (lastn 3 l) x = lastn 3 (l ++ [x]).
Proof.
  unfold push_window, lastn. rewrite app_length. cbn [length].
  destruct (Nat.le_gt_cases (length l) 2) as [Hs|Hl].
  - replace (length l - 3)%nat with 0%nat by lia. replace (length l + 1 - 3)%nat with 0%nat by lia.
    cbn [skipn]. destruct (Nat.ltb_spec (length l) 3); [reflexivity|lia].
  - rewrite skipn_length. destruct (Nat.ltb_spec (length l - (length l - 3)) 3); [lia|].
    replace (length l + 1 - 3)%nat with (S (length l - 3)) by lia.
    rewrite skipn_app. replace (S (length l - 3) - length l)%nat with 0%nat by lia. cbn [skipn]. f_equal.
    generalize (length l - 3)%nat. intros n. clear. revert l. induction n as [|n IH]; intros l.
    + destruct l; reflexivity.
    + destruct l as [|y l]; [reflexivity|]. cbn [skipn]. rewrite IH. reflexivity.
Qed.

Definition successes (rs : list (scrape_result * bool)) : list (Z * Z) :=
  flat_map (fun r => match fst r with ScrOk s t => [(s, t)] | ScrFail => [] end) rs.
Definition run_scrapes (st : sstat) (rs : list (scrape_result * bool)) : sstat :=
  fold_left (fun st r => scrape_status st (fst r) (snd r)) rs st.

Lemma successes_app a b : successes (a ++ b) = successes a ++ successes b.
Proof. unfold successes. apply flat_map_app. Qed.

Theorem window_spec es et rs :
  let st := run_scrapes (new_sstat es et) rs in
  let ok := successes rs in
  ss_window st = lastn 3 (map fst ok) /\
  ss_times st = N.of_nat (length rs) /\
  (ok = [] -> ss_series st = es /\ ss_total st = et) /\
  (ok <> [] -> ss_series st = window_mean (lastn 3 (map fst ok)) /\ ss_total st = snd (last ok (0, 0))).
Proof.
  induction rs as [|r rs IH] using rev_ind; cbn zeta.
  - cbn. split; [reflexivity|]. split; [reflexivity|]. split; [auto|]. intros Hc. now contradiction Hc.
  - cbn zeta in IH. destruct IH as [Hw [Ht [He Hn]]].
    unfold run_scrapes in *. rewrite fold_left_app. cbn [fold_left].
    rewrite successes_app, app_length. cbn [length].
    set (st := fold_left (fun st r => scrape_status st (fst r) (snd r)) rs (new_sstat es et)) in *.
    destruct r as [[s t|] stopped]; cbn [fst snd scrape_status successes flat_map app].
    + cbn [ss_window ss_times ss_series ss_total]. rewrite Hw, push_window_lastn, map_app. cbn [map fst].
      split; [reflexivity|]. split; [lia|]. split.
      * intros H. destruct (successes rs); discriminate.
      * intros _. split; [reflexivity|]. rewrite last_last. reflexivity.
    + cbn [ss_window ss_times ss_series ss_total]. rewrite app_nil_r.
      split; [assumption|]. split; [lia|]. split; assumption.
Qed.

Theorem runtime_spec prom s :
  rt_proc s = sum_total (sc_status s) /\ sum_series (sc_status s) <= rt_head prom s /\ prom <= rt_head prom s /\
  (rt_head prom s = prom \/ rt_head prom s = sum_series (sc_status s)).
Proof. unfold rt_proc, rt_head. repeat split; lia. Qed.

Lemma insert_samp_in x t l : In x (insert_samp t l) -> x = t \/ In x l.
Proof.
  induction l as [|y r IH]; cbn; [intros [H|[]]; auto|].
  destruct (sm_job t <=? sm_job y)%N; cbn; [intros [H|H]; auto|]. intros [H|H]; [auto|]. destruct (IH H); auto.
Qed.
Lemma model_samples_in s m : In m (model_samples s) ->
  exists jt, In jt (sc_targets s) /\ m = samples_of_job (sc_status s) (fst jt) (snd jt).
Proof.
  unfold model_samples. induction (sc_targets s) as [|jt r IH]; cbn; [intros []|].
  intros H. apply insert_samp_in in H. destruct H as [->|H]; [exists jt; auto|]. destruct (IH H) as [jt' [A B]]. exists jt'. auto.
Qed.
(* /samples/: the per-job figures the endpoint serves add up *)
Theorem samples_add_up s m : In m (model_samples s) ->
  sm_scraped m = fst (sm_keep m) + fst (sm_drop m) /\ fst (sm_keep m) = snd (sm_keep m) /\ fst (sm_drop m) = 0.
Proof.
  intros H. destruct (model_samples_in s m H) as [jt [_ ->]]. unfold samples_of_job. cbn. lia.
Qed.
(* a failed scrape empties the target's contribution, a whole payload replaces it (also when a stop reason is set) *)
Theorem last_stats_after_scrape st r stopped :
  ss_last (scrape_status st r stopped) = match r with ScrOk kept all => Some (kept, all) | ScrFail => None end.
Proof. destruct r; reflexivity. Qed.

Lemma insert_N_in x y l : In y (insert_N x l) <-> y = x \/ In y l.
Proof.
  induction l as [|z r IH]; cbn; [split; intros [->|[]]; now left|].
  destruct (x <=? z)%N; cbn; [split; (intros [->|H]; [now left | now right])|]. split.
  - intros [H|H]; [right; now left|]. apply IH in H. destruct H as [H|H]; [now left | right; now right].
  - intros [H|[H|H]]; [right; apply IH; now left | now left | right; apply IH; now right].
Qed.
Lemma merge_N_in y a b : In y (fold_right insert_N b a) <-> In y a \/ In y b.
Proof.
  induction a as [|x r IH]; cbn; [split; [now right | intros [[]|H]; exact H]|]. split; intros H.
  - apply insert_N_in in H. destruct H as [->|H]; [left; now left|].
    apply IH in H. destruct H as [H|H]; [left; now right | now right].
  - apply insert_N_in. destruct H as [[->|H]|H]; [now left | right; apply IH; now left | right; apply IH; now right].
Qed.

Definition job_has (l : list (N * list N)) (j h : N) : Prop := exists hs, In (j, hs) l /\ In h hs.

Lemma job_has_nil j h : job_has [] j h <-> False.
Proof. split; [intros [hs [[] _]] | intros []]. Qed.
Lemma job_has_cons k ks l j h : job_has ((k, ks) :: l) j h <-> (j = k /\ In h ks) \/ job_has l j h.
Proof.
  unfold job_has. split.
  - intros [hs [[E|Hin] Hh]]; [injection E as <- <-; now left | right; eauto].
  - intros [[-> Hh]|[hs [Hin Hh]]]; [exists ks | exists hs]; (split; [|assumption]); [now left | now right].
Qed.

Lemma insert_job_has j hs l j' h : job_has (insert_job j hs l) j' h <-> (j' = j /\ In h hs) \/ job_has l j' h.
Proof.
  induction l as [|[k ks] r IH]; cbn [insert_job]; [apply job_has_cons|].
  destruct (N.eqb_spec j k) as [<-|Hjk]; [|destruct (j <? k)%N; [apply job_has_cons|]]; split; intros H.
  - (* same job: its hashes are merged *)
    apply job_has_cons in H. destruct H as [[-> H]|H]; [|right; apply job_has_cons; now right].
    apply merge_N_in in H. destruct H as [H|H]; [now left | right; apply job_has_cons; now left].
  - apply job_has_cons. destruct H as [[-> H]|H]; [left; split; [reflexivity|apply merge_N_in; now left]|].
    apply job_has_cons in H. destruct H as [[-> H]|H]; [left; split; [reflexivity|apply merge_N_in; now right] | now right].
  - apply job_has_cons in H. destruct H as [H|H]; [right; apply job_has_cons; now left|].
    apply IH in H. destruct H as [H|H]; [now left | right; apply job_has_cons; now right].
  - apply job_has_cons. destruct H as [H|H]; [right; apply IH; now left|].
    apply job_has_cons in H. destruct H as [H|H]; [now left | right; apply IH; now right].
Qed.

(* the generated file (model_injected) lists per job exactly the hashes of the targets assigned to that job *)
Theorem injected_spec s j h :
  job_has (model_injected s) j h <-> exists ts, In (j, ts) (sc_targets s) /\ In h (map t_hash ts).
Proof.
  unfold model_injected.
  (* dropping the jobs without targets loses no hash *)
  assert (Hf : forall l, job_has (filter (fun jh : N * list N => negb (match snd jh with [] => true | _ => false end)) l) j h <-> job_has l j h).
  { intros l. unfold job_has. split; intros [hs [Hin Hh]]; exists hs; (split; [|exact Hh]).
    - now apply filter_In in Hin.
    - apply filter_In. split; [exact Hin|]. destruct hs; [destruct Hh|reflexivity]. }
  rewrite Hf. induction (sc_targets s) as [|[k ts] r IH]; cbn [fold_right fst snd].
  - rewrite job_has_nil. split; [intros [] | intros [x [[] _]]].
  - pose proof (insert_job_has k (fold_right insert_N [] (map t_hash ts)) (fold_right (fun jt acc => insert_job (fst jt) (fold_right insert_N [] (map t_hash (snd jt))) acc) [] r) j h) as Hi.
    pose proof (merge_N_in h (map t_hash ts) []) as Hm. cbn [In] in Hm. split.
    + intros H. apply Hi in H. destruct H as [[-> Hh]|H]; [exists ts; split; [now left|now apply Hm in Hh; destruct Hh]|].
      apply IH in H. destruct H as [x [Hin Hh]]. exists x. split; [now right|exact Hh].
    + intros [x [[E|Hin] Hh]]; apply Hi; [injection E as <- <-; left; split; [reflexivity|apply Hm; now left] | right; apply IH; eauto].
Qed.

Theorem injected_after_update s req now ok j h :
  job_has (model_injected (fst (do_update s req now ok))) j h <-> exists ts, In (j, ts) req /\ In h (map t_hash ts).
Proof. now rewrite injected_spec, do_update_targets. Qed.
