(* Proofs/TranslateSorted.v — C02: from "equal as maps" to "equal": the visible label set (labels.Labels: sorted by name,
   unique names, no empty value) and the encoded query (url.Values.Encode: keys in order) are canonical forms, so two
   that agree on every name / key are the same list. *)
From Coq Require Import Permutation Sorted.
From KV Require Import Base.Util Base.Lists Base.StrFacts Model.Inject Model.Translate Proofs.TranslateProofs Proofs.TranslateEquiv.
Local Open Scope list_scope.
Local Open Scope string_scope.

Definition slt (a b : string) : Prop := String.ltb a b = true.

Lemma compare_lt_trans a : forall b c, String.compare a b = Lt -> String.compare b c = Lt -> String.compare a c = Lt.
Proof.
  induction a as [|x a IH]; intros [|y b] [|z c]; simpl; try discriminate; [reflexivity|].
  unfold Ascii.compare.
  destruct (N.compare_spec (Ascii.N_of_ascii x) (Ascii.N_of_ascii y)) as [E|E|E]; try discriminate;
    destruct (N.compare_spec (Ascii.N_of_ascii y) (Ascii.N_of_ascii z)) as [E'|E'|E']; try discriminate; intros H1 H2.
  - rewrite E, E', N.compare_refl. now apply (IH b).
  - now rewrite E, (proj2 (N.compare_lt_iff _ _) E').
  - now rewrite <- E', (proj2 (N.compare_lt_iff _ _) E).
  - now rewrite (proj2 (N.compare_lt_iff _ _) (N.lt_trans _ _ _ E E')).
Qed.
Lemma slt_trans a b c : slt a b -> slt b c -> slt a c.
Proof.
  unfold slt, String.ltb. intros H1 H2.
  destruct (String.compare a b) eqn:E1; try discriminate. destruct (String.compare b c) eqn:E2; try discriminate.
  now rewrite (compare_lt_trans a b c E1 E2).
Qed.
Lemma slt_irrefl a : ~ slt a a.
Proof.
  unfold slt, String.ltb. intros H. destruct (String.compare a a) eqn:E; try discriminate.
  pose proof (String.compare_antisym a a) as A. rewrite E in A. discriminate.
Qed.
Lemma slt_total a b : a = b \/ slt a b \/ slt b a.
Proof.
  unfold slt, String.ltb. rewrite (String.compare_antisym b a).
  destruct (String.compare a b) eqn:E; cbn; auto. left. now apply String.compare_eq_iff.
Qed.
Lemma ltb_false_cases a b : String.ltb a b = false -> a = b \/ slt b a.
Proof. intros H. destruct (slt_total a b) as [?|[H1|?]]; auto. unfold slt in H1. congruence. Qed.

(* association lists with strictly increasing keys are determined by their lookups *)
Section Sorted.
Context {V : Type}.
Implicit Types a b : list (string * V).

Definition kslt (x y : string * V) : Prop := slt (fst x) (fst y).
Definition ksorted a : Prop := StronglySorted kslt a.

Lemma ksorted_nd a : ksorted a -> NoDup (map fst a).
Proof.
  induction 1 as [|x r Hr IH Hall]; constructor; [|exact IH]. intros Hin. apply in_map_iff in Hin. destruct Hin as [y [E Hy]].
  rewrite Forall_forall in Hall. apply (slt_irrefl (fst x)). rewrite <- E at 2. now apply Hall.
Qed.

Lemma ksorted_filter (f : string * V -> bool) a : ksorted a -> ksorted (filter f a).
Proof.
  induction 1 as [|x r Hr IH Hall]; cbn [filter]; [constructor|]. destruct (f x); [|exact IH].
  constructor; [exact IH|]. apply incl_Forall with (l1 := r); [apply incl_filter|exact Hall].
Qed.

Lemma sorted_lookup_ext a b : ksorted a -> ksorted b -> (forall k, lookup k a = lookup k b) -> a = b.
Proof.
  intros Sa Sb H. pose proof (ksorted_nd a Sa) as Na. pose proof (ksorted_nd b Sb) as Nb.
  apply (sorted_perm_unique kslt); [intros x y H1 H2; exact (slt_irrefl _ (slt_trans _ _ _ H1 H2)) | exact Sa | exact Sb |].
  apply NoDup_Permutation; [exact (NoDup_map_inv _ _ Na) | exact (NoDup_map_inv _ _ Nb) |].
  intros [k v]. split; intros Hin; apply lookup_some_in; [rewrite <- H | rewrite H]; now apply lookup_in_nd.
Qed.
End Sorted.

Lemma in_lset k v m kv : In kv (lset k v m) -> kv = (k, v) \/ In kv m.
Proof.
  induction m as [|[k1 v1] r IH]; cbn [lset In]; [intuition congruence|].
  destruct (String.eqb k k1); cbn [In]; [intuition congruence|]. destruct (String.ltb k k1); cbn [In]; [intuition congruence|].
  intros [H|H]; [auto|]. destruct (IH H); auto.
Qed.

Lemma lset_sorted k v m : ksorted m -> ksorted (lset k v m).
Proof.
  induction 1 as [|[k1 v1] r Hr IH Hall]; cbn [lset]; [repeat constructor|].
  destruct (String.eqb_spec k k1) as [->|Hne]; [now constructor|].
  destruct (String.ltb k k1) eqn:El.
  - constructor; [now constructor|]. constructor; [exact El|].
    eapply Forall_impl; [|exact Hall]. intros y. now apply (slt_trans k k1).
  - constructor; [exact IH|]. rewrite Forall_forall in *. intros kv Hin. apply in_lset in Hin.
    destruct Hin as [->|Hin]; [|now apply Hall]. destruct (ltb_false_cases k k1 El) as [E|E]; [contradiction|exact E].
Qed.

Lemma of_labels_sorted ls : ksorted (of_labels ls).
Proof. unfold of_labels. apply fold_left_inv; [constructor|]. intros a kv Ha. now apply lset_sorted. Qed.

Lemma ne_of_labels ls : ne ls -> ne (of_labels ls).
Proof.
  intros Hne. unfold of_labels. apply fold_left_inv_in; [intros k v []|].
  intros a [k v] Hin Ha k' v' H. apply in_lset in H. destruct H as [[= -> ->]|H]; [now apply (Hne k v)|now apply (Ha k' v')].
Qed.

Lemma visible_canonical l : ne l -> ksorted (visible l) /\ ne (visible l).
Proof. intros H. unfold visible. split; [apply of_labels_sorted|apply ne_of_labels; now apply ne_filter]. Qed.

Lemma sorted_ext (a b : labels) : ksorted a -> ksorted b -> ne a -> ne b -> (forall k, lval k a = lval k b) -> a = b.
Proof.
  intros Sa Sb Na Nb H. apply sorted_lookup_ext; [assumption|assumption|].
  intros k. rewrite <- !lget_lookup, !lget_of_lval by assumption. now rewrite H.
Qed.

Lemma visible_ext l1 l2 : ne l1 -> ne l2 -> (forall k, lval k (visible l1) = lval k (visible l2)) -> visible l1 = visible l2.
Proof.
  intros N1 N2 H. destruct (visible_canonical l1 N1) as [S1 E1]. destruct (visible_canonical l2 N2) as [S2 E2].
  now apply sorted_ext.
Qed.

Definition qne (q : list (string * list string)) : Prop := forall k vs, In (k, vs) q -> vs <> [].

Lemma qsorted_ext (a b : list (string * list string)) : ksorted a -> ksorted b -> qne a -> qne b -> (forall k, qval k a = qval k b) -> a = b.
Proof.
  intros Sa Sb Na Nb H. apply sorted_lookup_ext; [assumption|assumption|].
  intros k. specialize (H k). rewrite !qval_lookup in H.
  destruct (lookup k a) as [va|] eqn:Ea, (lookup k b) as [vb|] eqn:Eb; subst; try reflexivity.
  - now destruct (Na k [] (lookup_some_in _ _ _ Ea)).
  - now destruct (Nb k [] (lookup_some_in _ _ _ Eb)).
Qed.

Lemma sort_query_sorted q : ndq q -> ksorted (sort_query q).
Proof.
  apply (isort_sorted _ kslt fst). intros x r Hn Hs.
  apply ins_sorted; [intros a b c; apply slt_trans | | exact Hs].
  intros y Hy. unfold kslt. destruct (String.ltb (fst x) (fst y)) eqn:El; [exact El|].
  destruct (ltb_false_cases _ _ El) as [E|E]; [|exact E]. destruct Hn. rewrite E. now apply in_map.
Qed.

Definition canonical (r : option (labels * url)) : Prop :=
  match r with
  | Some (l, u) => ksorted l /\ ne l /\ ksorted (u_query u) /\ qne (u_query u)
  | None => True
  end.

(* the target of a label set, and what the proxy makes of its URL, are canonical *)
Lemma canonical_target ps l : ndq ps -> lwf l -> canonical (Some (visible l, target_url ps l)).
Proof.
  intros Hps [Hnd Hne]. destruct (visible_canonical l Hne) as [S1 N1]. split; [exact S1|]. split; [exact N1|].
  unfold target_url. cbn [u_query]. split.
  - apply sort_query_sorted, NoDup_map_filter. now apply ndq_url_query.
  - intros k vs Hin. eapply Permutation_in in Hin; [|apply sort_query_perm].
    apply filter_In in Hin. destruct Hin as [_ Hv]. cbn [snd] in Hv. intros ->. discriminate.
Qed.

Lemma canonical_translated l u : canonical (Some (l, u)) -> canonical (Some (l, translate_url u)).
Proof.
  intros (S1 & N1 & Q1 & E1). split; [exact S1|]. split; [exact N1|]. unfold translate_url. cbn [u_query].
  split; [now apply ksorted_filter|]. intros k vs Hin. apply filter_In in Hin. now apply (E1 k vs).
Qed.

Lemma res_equiv_eq r1 r2 : res_equiv r1 r2 -> canonical r1 -> canonical r2 -> r1 = r2.
Proof.
  destruct r1 as [[l1 u1]|], r2 as [[l2 u2]|]; cbn [res_equiv canonical]; try tauto; try reflexivity.
  intros [Hl (Hs & Hh & Hp & Hq)] (S1 & N1 & Q1 & E1) (S2 & N2 & Q2 & E2).
  assert (l1 = l2) by now apply sorted_ext. subst l2.
  assert (Hqq : u_query u1 = u_query u2) by now apply qsorted_ext.
  destruct u1, u2. cbn in *. subst. reflexivity.
Qed.

Lemma canonical_routes R np aok iok c hash d : cfg_ok c -> port_added np -> runs_agree R c d ->
  canonical (sharded R np aok iok c hash d) /\ canonical (plain R np aok iok c d).
Proof.
  intros Hcfg Hadd Hr.
  destruct (routes_cases R np aok iok c hash d Hcfg Hadd Hr) as [[-> ->]|(Lp & Lc & addr & Hruns & HG & -> & ->)]; [now split|].
  split.
  - apply canonical_translated, canonical_target; [apply Hcfg | apply (wf_F c hash _ addr HG)].
  - apply canonical_target; [apply Hcfg|]. apply wf_fin_labels. split; [apply (ro_nd _ _ _ Hruns) | apply (ro_ne _ _ _ Hruns)].
Qed.

(* the property as an equation: the same targets - or none -, the same label lists, the same URLs *)
Theorem sharded_equals_plain R np aok iok c hash d : cfg_ok c -> port_added np -> runs_agree R c d ->
  sharded R np aok iok c hash d = plain R np aok iok c d.
Proof.
  intros Hcfg Hadd Hr. destruct (canonical_routes R np aok iok c hash d Hcfg Hadd Hr).
  apply res_equiv_eq; [now apply sharded_equiv_plain | assumption | assumption].
Qed.
