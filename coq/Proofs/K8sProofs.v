(* Proofs/K8sProofs.v — lemmas about Model/K8s.v (property C18). *)
From KV Require Import Base.Util Base.Lists Base.StrFacts Model.K8s Proofs.K8sWait.
From Coq Require Import Permutation.
Local Open Scope string_scope.
Local Open Scope list_scope.
Local Open Scope Z_scope.

(* "%s-%s-%d": the ordinal is determined by the claim name, whatever the template names are *)
Lemma pvc_name_ordinal_inj t t' set set' i j :
  0 <= i -> 0 <= j -> pvc_name t set i = pvc_name t' set' j -> i = j.
Proof.
  intros Hi Hj E. unfold pvc_name in E. rewrite !decZ_nonneg in E by assumption.
  change (t +++ "-" +++ set +++ "-" +++ dec (Z.to_N i)) with (t +++ "-" +++ set +++ String dash (dec (Z.to_N i))) in E.
  change (t' +++ "-" +++ set' +++ "-" +++ dec (Z.to_N j)) with (t' +++ "-" +++ set' +++ String dash (dec (Z.to_N j))) in E.
  rewrite <- !sapp_assoc in E.
  apply last_field_inj, dec_inj in E; auto using nodash_dec. lia.
Qed.

Lemma pod_name_inj set i j : pod_name set i = pod_name set j -> i = j.
Proof.
  unfold pod_name. intros E. apply sapp_inv_head in E. simpl in E.
  injection E as E. now apply dec_inj.
Qed.

Lemma In_deleted_names set tpls old e n :
  In n (deleted_names set tpls old e) <->
  exists t i, In t tpls /\ e <= i < old /\ n = pvc_name t set i.
Proof.
  unfold deleted_names. rewrite in_flat_map. split.
  - intros [i [Hi Hn]]. apply in_rev in Hi. apply In_zrange in Hi.
    apply in_map_iff in Hn. destruct Hn as [t [<- Ht]]. eauto.
  - intros [t [i [Ht [Hi ->]]]]. exists i. split.
    + apply -> in_rev. now apply In_zrange.
    + apply in_map_iff. eauto.
Qed.

Lemma change_scale_replicas del set e c :
  spec_replicas (change_scale del set e c) =
  match spec_replicas c with Some _ => Some e | None => None end.
Proof.
  unfold change_scale. destruct (spec_replicas c) as [old|] eqn:E; [|now rewrite E].
  destruct (Z.eqb_spec old e); simpl; [subst; now rewrite E | reflexivity].
Qed.

Lemma change_scale_unchanged del set e c :
  spec_replicas c = Some e \/ spec_replicas c = None -> change_scale del set e c = c.
Proof.
  unfold change_scale. intros [H|H]; rewrite H; [now rewrite Z.eqb_refl | reflexivity].
Qed.

Lemma change_scale_templates del set e c : templates (change_scale del set e c) = templates c.
Proof.
  unfold change_scale. destruct (spec_replicas c); [|reflexivity]. now destruct (_ =? _).
Qed.

Lemma change_scale_subset del set e c n :
  In n (pvcs (change_scale del set e c)) -> In n (pvcs c).
Proof.
  unfold change_scale. destruct (spec_replicas c) as [old|]; [|auto].
  destruct (old =? e); [auto|]. simpl. destruct del; [|auto].
  intros H. now apply filter_In in H.
Qed.

(* exactly the claims of the removed ordinals disappear, and only when deletion is enabled *)
Lemma change_scale_removed_iff del set e c n :
  (In n (pvcs c) /\ ~ In n (pvcs (change_scale del set e c))) <->
  (In n (pvcs c) /\ del = true /\
   exists old t i, spec_replicas c = Some old /\ In t (templates c) /\ e <= i < old /\ n = pvc_name t set i).
Proof.
  unfold change_scale. destruct (spec_replicas c) as [old|] eqn:Eo.
  2:{ split; [tauto|]. intros [_ [_ [old [t [i [H _]]]]]]. discriminate. }
  destruct (Z.eqb_spec old e) as [->|Hne].
  { split; [tauto|]. intros [_ [_ [old [t [i [H [_ [Hi _]]]]]]]]. injection H as <-. lia. }
  simpl. destruct del.
  - rewrite filter_In, negb_true_iff, str_mem_false, In_deleted_names. split.
    + intros [Hin Hn]. split; [assumption|]. split; [reflexivity|].
      destruct (in_dec string_dec n (deleted_names set (templates c) old e)) as [Hd|Hd].
      * apply In_deleted_names in Hd. destruct Hd as [t [i [Ht [Hi ->]]]]. exists old, t, i. auto.
      * exfalso. apply Hn. split; [assumption|]. now rewrite <- In_deleted_names.
    + intros [Hin [_ [old' [t [i [Ho [Ht [Hi ->]]]]]]]]. injection Ho as <-.
      split; [assumption|]. intros [_ Hn]. apply Hn. eauto.
  - split; [tauto|]. intros [_ [H _]]. discriminate.
Qed.

(* a claim stays unless it is named like a claim of a removed ordinal *)
Lemma change_scale_kept del set e c n :
  In n (pvcs c) ->
  (forall old t i, spec_replicas c = Some old -> In t (templates c) -> e <= i < old -> n <> pvc_name t set i) ->
  In n (pvcs (change_scale del set e c)).
Proof.
  intros Hin Hk.
  destruct (in_dec string_dec n (pvcs (change_scale del set e c))) as [|Hn]; [assumption|]. exfalso.
  destruct (proj1 (change_scale_removed_iff del set e c n) (conj Hin Hn)) as (_ & _ & old & t & i & Ho & Ht & Hi & E).
  exact (Hk old t i Ho Ht Hi E).
Qed.

(* never a claim of a surviving ordinal *)
Lemma change_scale_survivor del set e c t i :
  0 <= i < e -> In (pvc_name t set i) (pvcs c) -> In (pvc_name t set i) (pvcs (change_scale del set e c)).
Proof.
  intros Hi Hin. apply change_scale_kept; [exact Hin|].
  intros old t' j _ _ Hj E. apply pvc_name_ordinal_inj in E; lia.
Qed.

(* ... nor any object that is not named like a claim of this set at all *)
Lemma change_scale_stranger del set e c n :
  (forall t i, In t (templates c) -> n <> pvc_name t set i) ->
  In n (pvcs c) -> In n (pvcs (change_scale del set e c)).
Proof. intros Hs Hin. apply change_scale_kept; [exact Hin|]. intros old t i _ Ht _. now apply Hs. Qed.

Lemma pod_at_unique set pods i p :
  NoDup (map p_name pods) -> In p pods -> p_name p = pod_name set (N.of_nat i) -> pod_at set pods i = p.
Proof.
  intros Hnd Hin Hn. unfold pod_at, pod_map. rewrite <- Hn, (lookup_in_nd _ p); [reflexivity | |].
  - rewrite map_map. cbn [fst]. rewrite map_rev. now apply NoDup_rev.
  - apply (in_map (fun p => (p_name p, p))). now apply -> in_rev.
Qed.

(* the canonical listing: pod i is named <set>-<i> *)
Definition in_ordinal_order (set : string) (pods : list pod) : Prop :=
  forall i p, nth_error pods i = Some p -> p_name p = pod_name set (N.of_nat i).

Lemma ordinal_names_nodup set pods : in_ordinal_order set pods -> NoDup (map p_name pods).
Proof.
  intros H. apply NoDup_nth_error. intros i j Hi E.
  rewrite map_length in Hi.
  rewrite !nth_error_map in E.
  destruct (nth_error pods i) as [p|] eqn:Ei; [|apply nth_error_None in Ei; lia].
  destruct (nth_error pods j) as [q|] eqn:Ej; [|discriminate].
  simpl in E. injection E as E.
  rewrite (H _ _ Ei), (H _ _ Ej) in E. apply pod_name_inj in E. lia.
Qed.

Lemma shards_any_order set port sorted listed :
  in_ordinal_order set sorted -> Permutation sorted listed ->
  shards set port listed = map (shard_of port) sorted.
Proof.
  intros Hord Hperm. unfold shards.
  rewrite <- (Permutation_length Hperm).
  assert (Hnd : NoDup (map p_name listed)).
  { eapply Permutation_NoDup; [apply Permutation_map; exact Hperm | now apply ordinal_names_nodup with set]. }
  apply map_seq_nth with (g := pod_at set listed) (f := shard_of port).
  intros i p Hi. apply pod_at_unique; [assumption | |now apply Hord].
  eapply Permutation_in; [exact Hperm|]. eapply nth_error_In; eauto.
Qed.

Lemma shard_of_fields port p :
  s_id (shard_of port p) = p_name p /\
  s_url (shard_of port p) = "http://" +++ p_ip p +++ ":" +++ decZ port /\
  (s_ready (shard_of port p) = true <-> p_ip p <> "").
Proof.
  unfold shard_of; simpl. repeat split.
  - rewrite negb_true_iff. intros H E. rewrite E in H. discriminate.
  - intros H. rewrite negb_true_iff. destruct (String.eqb_spec (p_ip p) ""); congruence.
Qed.

(* a failing update: nothing changes, nothing is deleted, the failure is reported *)
Lemma change_scale_failed del set e c :
  fst (change_scale_f true del set e c) = c /\
  (snd (change_scale_f true del set e c) = true <-> exists old, spec_replicas c = Some old /\ old <> e).
Proof.
  unfold change_scale_f. destruct (spec_replicas c) as [old|] eqn:E.
  - destruct (Z.eqb_spec old e); simpl; split; try reflexivity.
    + split; [discriminate|]. intros [o [[= ->] Hne]]. contradiction.
    + split; [|reflexivity]. intros _. eauto.
  - simpl. split; [reflexivity|]. split; [discriminate|]. intros [o [H _]]. discriminate.
Qed.
Lemma change_scale_f_ok del set e c : change_scale_f false del set e c = (change_scale del set e c, false).
Proof.
  unfold change_scale_f, change_scale. destruct (spec_replicas c) as [old|]; [|reflexivity]. destruct (old =? e); reflexivity.
Qed.

(* Replicas over time: whatever one manager has seen before and however much time has passed, a StatefulSet in the
   middle of a rolling update is not coordinated *)
Lemma replicas_one_taken now st s : snd (replicas_one now st s) = true -> st_replicas s = st_updated s.
Proof.
  intros H. destruct (Z.eq_dec (st_replicas s) (st_updated s)) as [|Hu]; [assumption|].
  rewrite (replicas_one_updating now st s Hu) in H. discriminate.
Qed.

Lemma replicas_call_taken now : forall l st name,
  In name (snd (replicas_call now st l)) -> exists s, In s l /\ st_name s = name /\ st_replicas s = st_updated s.
Proof.
  induction l as [|s r IH]; intros st name H; cbn [replicas_call] in H; [destruct H|].
  destruct (replicas_one now st s) as [st1 take] eqn:E1. destruct (replicas_call now st1 r) as [st2 names] eqn:E2.
  cbn [snd] in H. assert (Hr : In name names -> exists s0, In s0 (s :: r) /\ st_name s0 = name /\ st_replicas s0 = st_updated s0).
  { intros Hin. destruct (IH st1 name) as [s0 [A B]]; [now rewrite E2|]. exists s0. split; [now right|exact B]. }
  destruct take; [|now apply Hr]. destruct H as [<-|H]; [|now apply Hr].
  exists s. split; [now left|]. split; [reflexivity|]. apply (replicas_one_taken now st). now rewrite E1.
Qed.

Theorem rolling_skipped_always : forall calls now st k names,
  nth_error (replicas_hist now st calls) k = Some names ->
  exists dt l, nth_error calls k = Some (dt, l) /\
    forall name, In name names -> exists s, In s l /\ st_name s = name /\ st_replicas s = st_updated s.
Proof.
  induction calls as [|[dt l] r IH]; intros now st k names H; cbn [replicas_hist] in H; [destruct k; discriminate|].
  destruct (replicas_call (now + dt) st l) as [st1 ns] eqn:E. destruct k as [|k]; cbn [nth_error] in *.
  - injection H as <-. exists dt, l. split; [reflexivity|]. intros name Hin. apply (replicas_call_taken (now + dt) l st). now rewrite E.
  - apply (IH _ _ _ _ H).
Qed.

(* the first call of a fresh manager is the one-call model *)
Lemma rm_del_all now n st : Forall (fun kv => snd kv = now) st -> Forall (fun kv : string * Z => snd kv = now) (rm_del n st).
Proof.
  induction st as [|[k v] r IH]; intros H; cbn; [constructor|]. inversion H as [|? ? Hh Ht].
  destruct (String.eqb n k); [now apply IH|constructor; [exact Hh|now apply IH]].
Qed.
Lemma rm_find_all now n st t : Forall (fun kv : string * Z => snd kv = now) st -> rm_find n st = Some t -> t = now.
Proof.
  induction st as [|[k v] r IH]; intros H Hf; cbn in Hf; [discriminate|]. inversion H as [|? ? Hh Ht].
  destruct (String.eqb n k); [injection Hf as <-; exact Hh|now apply IH].
Qed.
(* a manager that has only memories of this very instant answers like a fresh one, and stays so *)
Lemma replicas_one_fresh now st s : Forall (fun kv : string * Z => snd kv = now) st ->
  Forall (fun kv : string * Z => snd kv = now) (fst (replicas_one now st s)) /\
  snd (replicas_one now st s) = coordinated_first_call s.
Proof.
  intros Hst. unfold coordinated_first_call.
  destruct (Z.eq_dec (st_replicas s) (st_updated s)) as [Hu|Hu].
  - rewrite (proj2 (Z.eqb_eq _ _) Hu). destruct (Z.eq_dec (st_ready s) (st_replicas s)) as [Hr|Hr].
    + rewrite (replicas_one_ready now st s Hu Hr), (proj2 (Z.eqb_eq _ _) Hr). now split.
    + rewrite (replicas_one_not_ready now st s Hu Hr), (proj2 (Z.eqb_neq _ _) Hr).
      destruct (rm_find (st_name s) st) as [t|] eqn:Ef; cbn [fst snd].
      * rewrite (rm_find_all now _ _ _ Hst Ef), Z.sub_diag. now split.
      * rewrite Z.sub_diag. split; [|reflexivity]. constructor; [reflexivity | now apply rm_del_all].
  - rewrite (replicas_one_updating now st s Hu), (proj2 (Z.eqb_neq _ _) Hu). split; [now apply rm_del_all | reflexivity].
Qed.

Lemma replicas_call_fresh now : forall l st, Forall (fun kv : string * Z => snd kv = now) st ->
  snd (replicas_call now st l) = map st_name (filter coordinated_first_call l).
Proof.
  induction l as [|s r IH]; intros st Hst; cbn [replicas_call filter map]; [reflexivity|].
  destruct (replicas_one_fresh now st s Hst) as [Hst1 Ht].
  destruct (replicas_one now st s) as [st1 take]. cbn [fst snd] in *. subst take. specialize (IH st1 Hst1).
  destruct (replicas_call now st1 r) as [st2 names]. cbn [snd] in *. rewrite IH.
  now destruct (coordinated_first_call s).
Qed.

(* Replicas: a StatefulSet in the middle of a rolling update is not coordinated *)
Lemma rolling_skipped l name :
  In name (replicas_first_call l) ->
  exists s, In s l /\ st_name s = name /\ st_replicas s = st_updated s.
Proof.
  unfold replicas_first_call. rewrite <- (replicas_call_fresh 0 l [] (Forall_nil _)). apply replicas_call_taken.
Qed.

Theorem first_call_is_history l : replicas_hist 0 [] [(0, l)] = [replicas_first_call l].
Proof.
  cbn [replicas_hist]. pose proof (replicas_call_fresh (0 + 0) l [] (Forall_nil _)) as H.
  destruct (replicas_call (0 + 0) [] l) as [st1 names]. cbn [snd] in H. now rewrite H.
Qed.
