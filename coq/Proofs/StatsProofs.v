(* Proofs/StatsProofs.v — C14: the recorded totals are the sample counts before and after relabeling,
   each metric's entry is its own pair of counts, and the result does not depend on how the payload is cut
   into blocks or in which order the blocks are accounted. *)
From KV Require Import Base.Util Base.AMap Model.Stats.
From Coq Require Import Permutation.
Local Open Scope list_scope.
Local Open Scope Z_scope.

Section P.
Variable keep : row -> bool.

Definition cnt (f : row -> bool) (rows : list row) : Z := Z.of_nat (length (filter f rows)).
Definition of_metric (m : N) (r : row) : bool := N.eqb (r_metric r) m.

Lemma cnt_app f a b : cnt f (a ++ b) = cnt f a + cnt f b.
Proof. unfold cnt. rewrite filter_app, app_length. lia. Qed.
Lemma cnt_perm f a b : Permutation a b -> cnt f a = cnt f b.
Proof.
  intros H. unfold cnt. f_equal. induction H; simpl; auto.
  - destruct (f x); simpl; congruence.
  - destruct (f x), (f y); simpl; congruence.
  - congruence.
Qed.

(* the state after accounting rows `done` *)
Definition accounts (s : stat) (done : list row) : Prop :=
  s_total s = Z.of_nat (length done) /\
  s_scraped s = cnt keep done /\
  forall m, afind m (s_metrics s) =
            if (0 <? cnt (of_metric m) done) then Some (cnt (of_metric m) done, cnt (fun r => of_metric m r && keep r) done)
            else None.

Lemma cnt_snoc f l r : cnt f (l ++ [r]) = cnt f l + (if f r then 1 else 0).
Proof. rewrite cnt_app. unfold cnt at 2. simpl. destruct (f r); simpl; lia. Qed.

Lemma cnt_nonneg f l : 0 <= cnt f l.
Proof. unfold cnt. lia. Qed.

Lemma cnt_and_le f g l : cnt (fun r => f r && g r) l <= cnt f l.
Proof.
  unfold cnt. induction l as [|x l IH]; simpl; [lia|]. destruct (f x), (g x); simpl in *; lia.
Qed.

Lemma accounts_row s done r : accounts s done -> accounts (stat_row keep s r) (done ++ [r]).
Proof.
  intros [Ht [Hs Hm]]. unfold stat_row. split; [|split]; cbn [s_total s_scraped s_metrics].
  - rewrite app_length. simpl. lia.
  - rewrite cnt_snoc, Hs. destruct (keep r); lia.
  - intros m. rewrite !cnt_snoc.
    destruct (N.eqb_spec (r_metric r) m) as [Heq|Hne].
    + assert (Hr : of_metric m r = true) by (unfold of_metric; subst; apply N.eqb_refl).
      rewrite Hr. subst m. rewrite afind_aset_eq. rewrite (Hm (r_metric r)).
      pose proof (cnt_nonneg (of_metric (r_metric r)) done).
      destruct (0 <? cnt (of_metric (r_metric r)) done) eqn:E; cbn [fst snd andb].
      * destruct (0 <? cnt (of_metric (r_metric r)) done + 1) eqn:E2; [|apply Z.ltb_ge in E2; lia].
        destruct (keep r); [reflexivity | now rewrite Z.add_0_r].
      * apply Z.ltb_ge in E. assert (H0 : cnt (of_metric (r_metric r)) done = 0) by lia.
        assert (H1 : cnt (fun r0 => of_metric (r_metric r) r0 && keep r0) done = 0).
        { pose proof (cnt_and_le (of_metric (r_metric r)) keep done). pose proof (cnt_nonneg (fun r0 => of_metric (r_metric r) r0 && keep r0) done). lia. }
        rewrite H0, H1. simpl. destruct (keep r); reflexivity.
    + assert (Hr : of_metric m r = false) by (unfold of_metric; now apply N.eqb_neq).
      rewrite Hr. rewrite afind_aset_neq by assumption. rewrite (Hm m). cbn [andb]. now rewrite !Z.add_0_r.
Qed.

Lemma accounts_block s done rows : accounts s done -> accounts (stat_block keep s rows) (done ++ rows).
Proof.
  revert s done. induction rows as [|r rows IH]; intros s done H; simpl.
  - now rewrite app_nil_r.
  - replace (done ++ r :: rows) with ((done ++ [r]) ++ rows) by now rewrite <- app_assoc.
    apply IH. now apply accounts_row.
Qed.

Lemma stat_blocks_concat blocks : stat_blocks keep blocks = stat_block keep empty_stat (concat blocks).
Proof.
  unfold stat_blocks. generalize empty_stat. induction blocks as [|b bs IH]; intros s; simpl; [reflexivity|].
  rewrite IH. unfold stat_block. symmetry. apply fold_left_app.
Qed.

Theorem stat_counts blocks :
  let s := stat_blocks keep blocks in
  let rows := concat blocks in
  s_total s = Z.of_nat (length rows) /\
  s_scraped s = Z.of_nat (length (filter keep rows)) /\
  forall m, afind m (s_metrics s) =
            if (0 <? cnt (of_metric m) rows) then Some (cnt (of_metric m) rows, cnt (fun r => of_metric m r && keep r) rows)
            else None.
Proof. cbn zeta. rewrite stat_blocks_concat. apply (accounts_block empty_stat []). repeat split. Qed.

(* any other cutting into blocks, in any order, of the same samples gives the same totals and per-metric counts *)
Theorem stat_block_order blocks blocks' :
  Permutation (concat blocks) (concat blocks') ->
  let s := stat_blocks keep blocks in let s' := stat_blocks keep blocks' in
  s_total s = s_total s' /\ s_scraped s = s_scraped s' /\ forall m, afind m (s_metrics s) = afind m (s_metrics s').
Proof.
  intros P. cbn zeta.
  destruct (stat_counts blocks) as [A [B C]]. destruct (stat_counts blocks') as [A' [B' C']]. cbn zeta in *.
  split; [rewrite A, A'; now rewrite (Permutation_length P)|]. split.
  - rewrite B, B'. apply (cnt_perm keep _ _ P).
  - intros m. rewrite C, C'. now rewrite !(cnt_perm _ _ _ P).
Qed.

(* the metrics listed are exactly those that occurred *)
Lemma keys_accounted s done : accounts s done -> forall m, In m (akeys (s_metrics s)) <-> 0 < cnt (of_metric m) done.
Proof.
  intros [_ [_ Hm]] m. rewrite <- afind_some_keys, Hm. destruct (0 <? cnt (of_metric m) done) eqn:E.
  - apply Z.ltb_lt in E. split; eauto.
  - apply Z.ltb_ge in E. split; [intros [v H]; discriminate | lia].
Qed.
End P.
