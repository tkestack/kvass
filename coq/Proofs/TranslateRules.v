(* Proofs/TranslateRules.v — C02: for the relabel-rule interpreter the hypothesis "the rules neither read nor write the
   two interval labels" of C02_equivalent is a THEOREM about rule lists that pass a check evaluated on the coordinator's
   run alone: the run with the interval labels in the input is then the coordinator's run plus the two labels. *)
From KV Require Import Base.Util Base.Lists Model.Translate Proofs.TranslateProofs Proofs.TranslateEquiv.
Local Open Scope list_scope.
Local Open Scope string_scope.

Definition is_ivl (k : string) : bool := String.eqb k I_ || String.eqb k T_.
(* a label set without its interval labels *)
Definition strip (l : labels) : labels := filter (fun kv => negb (is_ivl (fst kv))) l.

Lemma strip_ldel k b : strip (ldel k b) = if is_ivl k then strip b else ldel k (strip b).
Proof.
  unfold strip, ldel. destruct (is_ivl k) eqn:Hk; [|apply filter_comm]. apply filter_absorb. intros [k' v] H. cbn [fst] in *.
  apply negb_true_iff in H. apply negb_true_iff. destruct (String.eqb_spec k' k) as [->|]; [congruence|reflexivity].
Qed.
Lemma strip_lb_set k v b : strip (lb_set k v b) = if is_ivl k then strip b else lb_set k v (strip b).
Proof.
  unfold lb_set. destruct (String.eqb v ""); [apply strip_ldel|].
  unfold strip at 1. cbn [filter fst]. fold (strip (ldel k b)). rewrite strip_ldel. now destruct (is_ivl k).
Qed.
Lemma lval_strip k b : lval k (strip b) = if is_ivl k then "" else lval k b.
Proof. unfold strip. rewrite (lval_filter_key (fun x => negb (is_ivl x))). now destruct (is_ivl k). Qed.
Lemma strip_filter_names (g : string -> bool) b : strip (filter (fun kv => g (fst kv)) b) = filter (fun kv => g (fst kv)) (strip b).
Proof. unfold strip. apply filter_comm. Qed.

Definition nonivl (l : list string) : bool := forallb (fun n => negb (is_ivl n)) l.
Definition rule_blind (r : rrule) (a : labels) : bool :=
  match rr_action r with
  | RReplace => nonivl (rr_src r) && negb (is_ivl (rr_target r))
  | RKeep | RDrop => nonivl (rr_src r)
  | RLabelMap =>
    match pmatch (rr_pat r) I_, pmatch (rr_pat r) T_ with
    | None, None => forallb (fun kv => match pmatch (rr_pat r) (fst kv) with
                                       | Some cap => negb (is_ivl (expand (rr_repl r) cap))
                                       | None => true end) a
    | _, _ => false
    end
  | RLabelDrop => match pmatch (rr_pat r) I_, pmatch (rr_pat r) T_ with None, None => true | _, _ => false end
  | RLabelKeep => match pmatch (rr_pat r) I_, pmatch (rr_pat r) T_ with Some _, Some _ => true | _, _ => false end
  end.

Lemma join_vals sep src b : nonivl src = true ->
  join sep (map (fun n => lval n (strip b)) src) = join sep (map (fun n => lval n b) src).
Proof.
  intros H. f_equal. apply map_ext_in. intros n Hin. unfold nonivl in H. rewrite forallb_forall in H.
  rewrite lval_strip. now rewrite (proj1 (negb_true_iff _) (H n Hin)).
Qed.

Lemma ivl_cases k : is_ivl k = true -> k = I_ \/ k = T_.
Proof. unfold is_ivl. intros H. apply orb_true_iff in H. destruct H as [H|H]; apply String.eqb_eq in H; auto. Qed.

(* labelmap: the fold over the set with the interval labels = the fold over the set without, plus the interval labels *)
Lemma labelmap_strip pat repl : pmatch pat I_ = None -> pmatch pat T_ = None ->
  forall l acc,
  forallb (fun kv => match pmatch pat (fst kv) with Some cap => negb (is_ivl (expand repl cap)) | None => true end) (strip l) = true ->
  strip (fold_left (fun m kv => match pmatch pat (fst kv) with Some cap => lb_set (expand repl cap) (snd kv) m | None => m end) l acc)
  = fold_left (fun m kv => match pmatch pat (fst kv) with Some cap => lb_set (expand repl cap) (snd kv) m | None => m end) (strip l) (strip acc).
Proof.
  intros HI HT. induction l as [|[k v] r IH]; intros acc Hall; [reflexivity|].
  cbn [fold_left fst snd]. unfold strip at 2. cbn [filter fst]. destruct (is_ivl k) eqn:Ek; cbn [negb].
  - fold (strip r). unfold strip in Hall. cbn [filter fst] in Hall. rewrite Ek in Hall. cbn [negb] in Hall.
    destruct (ivl_cases k Ek) as [-> | ->]; [rewrite HI|rewrite HT]; now apply IH.
  - fold (strip r). unfold strip in Hall. cbn [filter fst] in Hall. rewrite Ek in Hall. cbn [negb forallb fst] in Hall.
    apply andb_true_iff in Hall. destruct Hall as [Hk Hall]. cbn [fold_left fst snd].
    destruct (pmatch pat k) as [cap|]; [|now apply IH].
    rewrite IH by exact Hall. f_equal. now rewrite strip_lb_set, (proj1 (negb_true_iff _) Hk).
Qed.

(* the two runs of one rule: both drop, or the coordinator's result is the other's without the interval labels *)
Definition orel (x y : option labels) : Prop :=
  match x, y with Some a, Some b => a = strip b | None, None => True | _, _ => False end.

Lemma relabel1_rel r b : rule_blind r (strip b) = true -> orel (relabel1 r (strip b)) (relabel1 r b).
Proof.
  unfold rule_blind, relabel1. destruct (rr_action r).
  - (* replace *)
    intros H. apply andb_true_iff in H. destruct H as [Hs Ht]. apply negb_true_iff in Ht.
    rewrite (join_vals _ _ b Hs). destruct (pmatch _ _) as [cap|]; cbn; [|reflexivity].
    now rewrite !lb_set_if, strip_lb_set, Ht.
  - intros Hs. rewrite (join_vals _ _ b Hs). destruct (pmatch _ _); cbn; auto.
  - intros Hs. rewrite (join_vals _ _ b Hs). destruct (pmatch _ _); cbn; auto.
  - (* labelmap *)
    destruct (pmatch (rr_pat r) I_) eqn:HI; [discriminate|]. destruct (pmatch (rr_pat r) T_) eqn:HT; [discriminate|].
    intros Hall. cbn. symmetry. now apply labelmap_strip.
  - destruct (pmatch (rr_pat r) I_) eqn:HI; [discriminate|]. destruct (pmatch (rr_pat r) T_) eqn:HT; [discriminate|].
    intros _. cbn. symmetry. apply (strip_filter_names (fun n => match pmatch (rr_pat r) n with Some _ => false | None => true end)).
  - intros _. cbn. symmetry. apply (strip_filter_names (fun n => match pmatch (rr_pat r) n with Some _ => true | None => false end)).
Qed.

Lemma labelmap_keeps pat repl k : forall l acc,
  forallb (fun kv => match pmatch pat (fst kv) with Some cap => negb (String.eqb (expand repl cap) k) | None => true end) l = true ->
  lval k (fold_left (fun m kv => match pmatch pat (fst kv) with Some cap => lb_set (expand repl cap) (snd kv) m | None => m end) l acc) = lval k acc.
Proof.
  induction l as [|[k' v] r IH]; intros acc H; [reflexivity|]. cbn [fold_left forallb fst snd] in *.
  apply andb_true_iff in H. destruct H as [Hk H]. rewrite IH by exact H.
  destruct (pmatch pat k'); [|reflexivity]. rewrite lval_lb_set. apply negb_true_iff in Hk. rewrite String.eqb_sym. now rewrite Hk.
Qed.

Lemma wf_labelmap pat repl l acc : lwf acc ->
  lwf (fold_left (fun m kv => match pmatch pat (fst kv) with Some cap => lb_set (expand repl cap) (snd kv) m | None => m end) l acc).
Proof. intros H. apply fold_left_inv; [exact H|]. intros a kv Ha. destruct (pmatch _ _); [now apply wf_lb_set|exact Ha]. Qed.

Lemma relabel1_wf r b b' : lwf b -> relabel1 r b = Some b' -> lwf b'.
Proof.
  intros H. unfold relabel1. destruct (rr_action r).
  - destruct (pmatch _ _); [|now intros [= <-]]. intros [= <-]. rewrite lb_set_if. now apply wf_lb_set.
  - destruct (pmatch _ _); [now intros [= <-]|discriminate].
  - destruct (pmatch _ _); [discriminate|now intros [= <-]].
  - intros [= <-]. now apply wf_labelmap.
  - intros [= <-]. now apply wf_filter.
  - intros [= <-]. now apply wf_filter.
Qed.

(* membership of the mapped names: the check on the stripped set covers the entries that can match *)
Lemma forallb_strip_all pat repl k b : is_ivl k = true -> pmatch pat I_ = None -> pmatch pat T_ = None ->
  forallb (fun kv => match pmatch pat (fst kv) with Some cap => negb (is_ivl (expand repl cap)) | None => true end) (strip b) = true ->
  forallb (fun kv => match pmatch pat (fst kv) with Some cap => negb (String.eqb (expand repl cap) k) | None => true end) b = true.
Proof.
  intros Hk HI HT H. apply forallb_forall. intros [k' v] Hin. cbn [fst].
  destruct (is_ivl k') eqn:Ek'.
  - destruct (ivl_cases k' Ek') as [-> | ->]; [now rewrite HI | now rewrite HT].
  - rewrite forallb_forall in H. assert (Hs : In (k', v) (strip b)) by (apply filter_In; cbn [fst]; rewrite Ek'; auto).
    specialize (H _ Hs). cbn [fst] in H. destruct (pmatch pat k') as [cap|]; [|reflexivity].
    apply negb_true_iff in H. apply negb_true_iff. destruct (String.eqb_spec (expand repl cap) k) as [E|]; [|reflexivity].
    rewrite E in H. congruence.
Qed.

Lemma relabel1_keeps_ivl r b b' k : is_ivl k = true -> rule_blind r (strip b) = true -> relabel1 r b = Some b' -> lval k b' = lval k b.
Proof.
  intros Hk. unfold rule_blind, relabel1. destruct (rr_action r).
  - intros H. apply andb_true_iff in H. destruct H as [_ Ht]. apply negb_true_iff in Ht.
    assert (Hne : String.eqb k (rr_target r) = false).
    { destruct (String.eqb_spec k (rr_target r)) as [E|]; [|reflexivity]. rewrite <- E in Ht. congruence. }
    destruct (pmatch _ _); [|intros [= <-]; reflexivity]. intros [= <-].
    now rewrite lb_set_if, lval_lb_set, Hne.
  - intros _. destruct (pmatch _ _); [intros [= <-]; reflexivity|discriminate].
  - intros _. destruct (pmatch _ _); [discriminate|intros [= <-]; reflexivity].
  - destruct (pmatch (rr_pat r) I_) eqn:HI; [discriminate|]. destruct (pmatch (rr_pat r) T_) eqn:HT; [discriminate|].
    intros Hall [= <-]. apply labelmap_keeps. now apply (forallb_strip_all _ _ k b Hk HI HT).
  - destruct (pmatch (rr_pat r) I_) eqn:HI; [discriminate|]. destruct (pmatch (rr_pat r) T_) eqn:HT; [discriminate|].
    intros _ [= <-]. rewrite (lval_filter_key (fun n => match pmatch (rr_pat r) n with Some _ => false | None => true end)).
    destruct (ivl_cases k Hk) as [-> | ->]; [now rewrite HI | now rewrite HT].
  - destruct (pmatch (rr_pat r) I_) eqn:HI; [|discriminate]. destruct (pmatch (rr_pat r) T_) eqn:HT; [|discriminate].
    intros _ [= <-]. rewrite (lval_filter_key (fun n => match pmatch (rr_pat r) n with Some _ => true | None => false end)).
    destruct (ivl_cases k Hk) as [-> | ->]; [now rewrite HI | now rewrite HT].
Qed.

Fixpoint blind_run (rs : list rrule) (a : labels) : bool :=
  match rs with
  | [] => true
  | r :: rs' => rule_blind r a && match relabel1 r a with Some a' => blind_run rs' a' | None => true end
  end.

Lemma relabel_rules_none rs : fold_left (fun acc r => match acc with Some x => relabel1 r x | None => None end) rs None = None.
Proof. induction rs as [|r rs IH]; [reflexivity|exact IH]. Qed.

Lemma relabel_rules_cons r rs l : relabel_rules (r :: rs) l = match relabel1 r l with Some l' => relabel_rules rs l' | None => None end.
Proof. unfold relabel_rules. cbn [fold_left]. destruct (relabel1 r l); [reflexivity|apply relabel_rules_none]. Qed.

Theorem rules_rel rs : forall b, nd b -> ne b -> blind_run rs (strip b) = true ->
  match relabel_rules rs (strip b), relabel_rules rs b with
  | Some a', Some b' => a' = strip b' /\ lval I_ b' = lval I_ b /\ lval T_ b' = lval T_ b /\ nd b' /\ ne b'
  | None, None => True
  | _, _ => False
  end.
Proof.
  induction rs as [|r rs IH]; intros b Hnd Hne Hb.
  - cbn. auto.
  - cbn [blind_run] in Hb. apply andb_true_iff in Hb. destruct Hb as [Hr Hb].
    rewrite !relabel_rules_cons. pose proof (relabel1_rel r b Hr) as Hrel. unfold orel in Hrel.
    destruct (relabel1 r (strip b)) as [a1|] eqn:Ea; destruct (relabel1 r b) as [b1|] eqn:Eb; try contradiction; [|exact I].
    subst a1. destruct (relabel1_wf r b b1 (conj Hnd Hne) Eb) as [Hnd1 Hne1].
    specialize (IH b1 Hnd1 Hne1 Hb).
    destruct (relabel_rules rs (strip b1)) as [a'|]; destruct (relabel_rules rs b1) as [b'|]; try contradiction; [|exact I].
    destruct IH as (E & EI & ET & N1 & N2). repeat split; auto.
    + rewrite EI. apply (relabel1_keeps_ivl r b b1 I_ eq_refl Hr Eb).
    + rewrite ET. apply (relabel1_keeps_ivl r b b1 T_ eq_refl Hr Eb).
Qed.

Lemma strip_set_if_empty k v d m : strip (set_if_empty k v d m) = if is_ivl k then strip m else set_if_empty k v d (strip m).
Proof. unfold set_if_empty. destruct (String.eqb _ ""); [apply strip_lb_set|now destruct (is_ivl k)]. Qed.
Lemma strip_set_params ps : forall m, strip (set_params ps m) = set_params ps (strip m).
Proof.
  unfold set_params. induction ps as [|[x vs] r IH]; intros m; [reflexivity|]. cbn [fold_left fst snd].
  rewrite IH. destruct vs as [|v0 vs]; [reflexivity|]. f_equal. rewrite strip_lb_set.
  destruct (param_key_facts x) as (_ & _ & _ & _ & Ht & Hi & _). unfold is_ivl. now rewrite Hi, Ht.
Qed.

Lemma strip_pre c d : strip d = d -> strip (pre true c d) = pre false c d.
Proof.
  intros Hd. unfold pre. rewrite strip_set_params.
  rewrite !strip_set_if_empty. cbn [is_ivl I_ T_ String.eqb Ascii.eqb Bool.eqb orb andb]. now rewrite Hd.
Qed.

Lemma strip_id_lval d k : strip d = d -> is_ivl k = true -> lval k d = "".
Proof. intros Hd Hk. now rewrite <- Hd, lval_strip, Hk. Qed.

Lemma pre_ivl c d : strip d = d ->
  lval I_ (pre true c d) = jc_interval c /\ lval T_ (pre true c d) = jc_timeout c.
Proof.
  intros Hd. rewrite !lval_pre. rewrite !pfirst_none by reflexivity.
  rewrite (strip_id_lval d I_ Hd eq_refl), (strip_id_lval d T_ Hd eq_refl). cbn. rewrite !andb_false_r. split; reflexivity.
Qed.

(* the two runs of the interpreter: every hypothesis is about the coordinator's run alone *)
Theorem rules_runs rs c d :
  strip d = d -> nd d -> ne d ->
  blind_run rs (pre false c d) = true ->
  (forall Lc, relabel_rules rs (pre false c d) = Some Lc -> relabelled_ok Lc) ->
  runs_agree (relabel_rules rs) c d.
Proof.
  intros Hd Hnd Hne Hb Hok. destruct (wf_pre true c d (conj Hnd Hne)) as [Np Ep].
  pose proof (rules_rel rs (pre true c d) Np Ep) as Hrel. rewrite (strip_pre c d Hd) in Hrel. specialize (Hrel Hb).
  unfold runs_agree.
  destruct (relabel_rules rs (pre false c d)) as [Lc|] eqn:Ec; destruct (relabel_rules rs (pre true c d)) as [Lp|]; try contradiction; [|exact I].
  destruct Hrel as (E & EI & ET & N1 & N2). destruct (pre_ivl c d Hd) as [PI PT]. subst Lc.
  constructor; [|now rewrite lval_strip|now rewrite lval_strip|exact N1|exact N2|now apply Hok].
  intros k. destruct (String.eqb_spec k I_) as [->|HnI]; [congruence|].
  destruct (String.eqb_spec k T_) as [->|HnT]; [congruence|].
  rewrite lval_strip. unfold is_ivl. apply String.eqb_neq in HnI, HnT. now rewrite HnI, HnT.
Qed.

Definition strippedb (d : labels) : bool := forallb (fun kv => negb (is_ivl (fst kv))) d.
Lemma strippedb_sound d : strippedb d = true -> strip d = d.
Proof.
  unfold strippedb, strip. induction d as [|kv r IH]; intros H; [reflexivity|]. cbn [forallb filter] in *.
  apply andb_true_iff in H. destruct H as [H1 H2]. rewrite H1. f_equal. now apply IH.
Qed.

Definition rules_hyp_okb (rs : list rrule) (c : jobcfg) (d : labels) : bool :=
  cfg_okb c && strippedb d && ndb d && neb d && blind_run rs (pre false c d) &&
  match relabel_rules rs (pre false c d) with Some Lc => relabelled_okb Lc | None => true end.

Lemma rules_hyp_okb_sound rs c d : rules_hyp_okb rs c d = true -> cfg_ok c /\ runs_agree (relabel_rules rs) c d.
Proof.
  intros H. unfold rules_hyp_okb in H. split_andb H. split; [now apply cfg_okb_sound|].
  apply rules_runs; [now apply strippedb_sound | now apply nodupb_sound | now apply neb_sound | assumption |].
  intros Lc E. match goal with Hm : match relabel_rules rs (pre false c d) with _ => _ end = true |- _ => rewrite E in Hm; now apply relabelled_okb_sound end.
Qed.

Definition st_thm_rules_applies (c : tr_case) : nat :=
  if tc_modelled c then length (filter (rules_hyp_okb (tc_rules c) (tc_cfg c)) (tc_discovered c)) else 0.
