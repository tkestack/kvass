(* Proofs/HashProofs.v — C15: the target hash is a function of the label SET and the URL; de-duplication;
   the pre-images fed to the two 64-bit functions lose nothing. *)
From KV Require Import Base.Util Base.Lists Model.Hash.
From Coq Require Import Permutation Sorted ZifyN ZifyNat.
Local Open Scope list_scope.
Local Open Scope N_scope.

Lemma bcompare_eq a : forall b, bcompare a b = Eq <-> a = b.
Proof.
  induction a as [|x a IH]; intros [|y b]; simpl; try (split; congruence).
  destruct (N.compare_spec x y) as [->|H|H].
  - rewrite IH. split; congruence.
  - split; [discriminate | intros [= -> _]; lia].
  - split; [discriminate | intros [= -> _]; lia].
Qed.

Lemma bcompare_antisym a : forall b, bcompare b a = CompOpp (bcompare a b).
Proof.
  induction a as [|x a IH]; intros [|y b]; simpl; try reflexivity.
  rewrite (N.compare_antisym x y). destruct (N.compare x y); simpl; auto.
Qed.

Lemma bcompare_lt_trans a : forall b c, bcompare a b = Lt -> bcompare b c = Lt -> bcompare a c = Lt.
Proof.
  induction a as [|x a IH]; intros [|y b] [|z c]; simpl; try congruence.
  destruct (N.compare_spec x y) as [->|Hxy|Hxy]; try discriminate.
  - destruct (N.compare_spec y z) as [->|Hyz|Hyz]; try discriminate; [apply IH | auto].
  - intros _. destruct (N.compare_spec y z) as [->|Hyz|Hyz]; try discriminate.
    + intros _. destruct (N.compare_spec x z); [lia | reflexivity | lia].
    + intros _. destruct (N.compare_spec x z); [lia | reflexivity | lia].
Qed.

Lemma beqb_eq a b : beqb a b = true <-> a = b.
Proof. unfold beqb. rewrite <- bcompare_eq. destruct (bcompare a b); split; congruence. Qed.
Lemma beqb_refl a : beqb a a = true.
Proof. now apply beqb_eq. Qed.

Definition ltl (a b : label) : Prop := bcompare (fst a) (fst b) = Lt.

Lemma sort_labels_perm ls : Permutation (sort_labels ls) ls.
Proof. exact (isort_perm _ ls). Qed.

Lemma sort_labels_sorted ls : NoDup (map fst ls) -> StronglySorted ltl (sort_labels ls).
Proof.
  apply (isort_sorted _ ltl fst). intros l r Hn Hs.
  apply ins_sorted; [exact (fun a b c => bcompare_lt_trans _ _ _) | | exact Hs].
  intros y Hy. unfold bleb, ltl. rewrite (bcompare_antisym (fst l) (fst y)).
  destruct (bcompare (fst l) (fst y)) eqn:E; try reflexivity.
  apply bcompare_eq in E. destruct Hn. rewrite E. now apply in_map.
Qed.

Lemma ltl_asym a b : ltl a b -> ltl b a -> False.
Proof. unfold ltl. intros H1 H2. rewrite bcompare_antisym, H1 in H2. discriminate. Qed.

Theorem sort_labels_canonical ls ls' :
  Permutation ls ls' -> NoDup (map fst ls) -> sort_labels ls = sort_labels ls'.
Proof.
  intros Hp Hnd. apply (sorted_perm_unique ltl _ ltl_asym).
  - now apply sort_labels_sorted.
  - apply sort_labels_sorted. eapply Permutation_NoDup; [apply Permutation_map; exact Hp|assumption].
  - rewrite sort_labels_perm, Hp. symmetry. apply sort_labels_perm.
Qed.

Theorem hash_function_of_content ls ls' url :
  Permutation ls ls' -> NoDup (map fst ls) -> target_hash ls url = target_hash ls' url.
Proof. intros Hp Hnd. unfold target_hash. now rewrite (sort_labels_canonical ls ls'). Qed.

Lemma lfind_app name a b : lfind name (a ++ b) = match lfind name a with Some v => Some v | None => lfind name b end.
Proof.
  induction a as [|[n v] r IH]; simpl; [reflexivity|]. destruct (beqb name n); auto.
Qed.

Theorem merge_target_wins name tl gl :
  lfind name (merge_labels tl gl) = match lfind name tl with Some v => Some v | None => lfind name gl end.
Proof.
  unfold merge_labels. rewrite lfind_app. destruct (lfind name tl) eqn:E; [reflexivity|].
  induction gl as [|[n v] r IH]; simpl; [reflexivity|].
  destruct (lfind n tl) eqn:En; simpl.
  - destruct (beqb name n) eqn:Eb; [|exact IH]. apply beqb_eq in Eb. subst. congruence.
  - destruct (beqb name n); [reflexivity|exact IH].
Qed.

Corollary split_irrelevant tl gl tl' gl' url :
  Permutation (merge_labels tl gl) (merge_labels tl' gl') -> NoDup (map fst (merge_labels tl gl)) ->
  target_hash (merge_labels tl gl) url = target_hash (merge_labels tl' gl') url.
Proof. apply hash_function_of_content. Qed.

Section Dedup.
Context {A : Type}.
Variable hash : A -> N.

Lemma dedup_sub seen l x : In x (dedup_hash hash seen l) -> In x l /\ ~ In (hash x) seen.
Proof.
  revert seen. induction l as [|y r IH]; simpl; intros seen; [tauto|].
  destruct (existsb (N.eqb (hash y)) seen) eqn:E.
  - intros H. apply IH in H. tauto.
  - intros [->|H].
    + split; [auto|]. intros Hin. apply existsb_eqb_in in Hin. congruence.
    + apply IH in H. simpl in H. tauto.
Qed.

Lemma dedup_nodup seen l : NoDup (map hash (dedup_hash hash seen l)).
Proof.
  revert seen. induction l as [|y r IH]; simpl; intros seen; [constructor|].
  destruct (existsb (N.eqb (hash y)) seen); [apply IH|].
  simpl. constructor; [|apply IH].
  intros Hin. apply in_map_iff in Hin. destruct Hin as [z [Hz Hin]]. apply dedup_sub in Hin. simpl in Hin. intuition congruence.
Qed.

Lemma dedup_covers seen l x : In x l -> In (hash x) seen \/ In (hash x) (map hash (dedup_hash hash seen l)).
Proof.
  revert seen. induction l as [|y r IH]; simpl; intros seen; [tauto|].
  intros [->|Hin].
  - destruct (existsb (N.eqb (hash x)) seen) eqn:E; [left; now apply existsb_eqb_in | right; simpl; auto].
  - destruct (existsb (N.eqb (hash y)) seen) eqn:E; [auto|].
    destruct (IH (hash y :: seen) Hin) as [[H|H]|H]; simpl; auto.
Qed.
End Dedup.

Theorem collapse {A} (hash : A -> N) l :
  NoDup (map hash (dedup_hash hash [] l)) /\
  (forall x, In x (dedup_hash hash [] l) -> In x l) /\
  (forall x, In x l -> In (hash x) (map hash (dedup_hash hash [] l))).
Proof.
  split; [apply dedup_nodup|]. split.
  - intros x H. now apply dedup_sub in H.
  - intros x H. destruct (dedup_covers hash [] l x H) as [[]|]; assumption.
Qed.

Definition no_sep (b : bytes) : Prop := ~ In sep b.
Definition wf_labels (ls : list label) : Prop := Forall (fun l => no_sep (fst l) /\ no_sep (snd l)) ls.

Lemma cut_at_sep a : forall a' r r', no_sep a -> no_sep a' -> a ++ sep :: r = a' ++ sep :: r' -> a = a' /\ r = r'.
Proof.
  unfold no_sep. induction a as [|x a IH]; intros [|y a'] r r' Ha Ha'; simpl in *.
  - intros [= ->]. auto.
  - intros [= <- _]. tauto.
  - intros [= -> _]. tauto.
  - intros [= -> H]. apply IH in H; [|tauto|tauto]. destruct H. subst. auto.
Qed.

Theorem labels_bytes_injective ls : forall ls', wf_labels ls -> wf_labels ls' -> labels_bytes ls = labels_bytes ls' -> ls = ls'.
Proof.
  unfold labels_bytes. induction ls as [|[n v] r IH]; intros [|[n' v'] r'] Hw Hw'; simpl.
  - reflexivity.
  - intros H. destruct n'; discriminate.
  - intros H. destruct n; discriminate.
  - inversion Hw as [|? ? [Hn Hv] Hr]; subst. inversion Hw' as [|? ? [Hn' Hv'] Hr']; subst. simpl in *.
    rewrite <- !app_assoc. simpl. intros H.
    apply cut_at_sep in H; [|assumption|assumption]. destruct H as [-> H].
    rewrite <- !app_assoc in H. simpl in H.
    apply cut_at_sep in H; [|assumption|assumption]. destruct H as [-> H].
    f_equal. now apply IH.
Qed.

Definition is_digit (b : N) : bool := (48 <=? b) && (b <=? 57).
Fixpoint value_rev (ds : bytes) : N := match ds with [] => 0 | d :: r => (d - 48) + 10 * value_rev r end.

Lemma digits_rev_value fuel : forall x, x < 10 ^ N.of_nat fuel -> value_rev (digits_rev fuel x) = x.
Proof.
  induction fuel as [|f IH]; intros x Hx.
  - simpl in Hx. assert (x = 0) by lia. subst. reflexivity.
  - cbn [digits_rev]. destruct (N.ltb_spec x 10).
    + cbn [value_rev]. lia.
    + cbn [value_rev]. rewrite IH.
      * pose proof (N.div_mod x 10). lia.
      * rewrite Nat2N.inj_succ, N.pow_succ_r' in Hx. apply N.div_lt_upper_bound; lia.
Qed.

Lemma digits_rev_digits fuel : forall x, forallb is_digit (digits_rev fuel x) = true.
Proof.
  induction fuel as [|f IH]; intros x; cbn [digits_rev]; [reflexivity|].
  destruct (N.ltb_spec x 10); cbn [forallb].
  - unfold is_digit. rewrite andb_true_r. apply andb_true_intro. split; [apply N.leb_le|apply N.leb_le]; lia.
  - rewrite IH, andb_true_r. unfold is_digit. pose proof (N.mod_upper_bound x 10).
    apply andb_true_intro. split; apply N.leb_le; lia.
Qed.

Definition value (ds : bytes) : N := value_rev (rev ds).

Lemma value_rev_app a b : value_rev (a ++ b) = value_rev a + 10 ^ N.of_nat (length a) * value_rev b.
Proof.
  induction a as [|d r IH]; cbn [app value_rev length].
  - change (N.of_nat 0) with 0. rewrite N.pow_0_r. lia.
  - rewrite IH, Nat2N.inj_succ, N.pow_succ_r'. lia.
Qed.

Lemma value_rev_zeros l : (forall d, In d l -> d = 48) -> value_rev l = 0.
Proof.
  induction l as [|d r IH]; intros H; cbn [value_rev]; [reflexivity|].
  rewrite (H d (or_introl eq_refl)), IH; [reflexivity|]. intros d' Hd. apply H. now right.
Qed.

Lemma pad16_value x : x < 10 ^ 21 -> value (pad16 x) = x.
Proof.
  intros Hx. unfold value, pad16, decimal.
  rewrite rev_app_distr, rev_involutive, value_rev_app, digits_rev_value by exact Hx.
  rewrite value_rev_zeros; [lia|]. intros d Hd. apply in_rev in Hd. now apply repeat_spec in Hd.
Qed.

Lemma pad16_digits x : forallb is_digit (pad16 x) = true.
Proof.
  unfold pad16, decimal. apply forallb_forall. intros d Hd. apply in_app_or in Hd. destruct Hd as [Hd|Hd].
  - apply repeat_spec in Hd. now subst.
  - apply in_rev in Hd. revert d Hd. apply forallb_forall, digits_rev_digits.
Qed.

Definition starts_nondigit (u : bytes) : Prop := match u with [] => True | b :: _ => is_digit b = false end.

Lemma digit_prefix_unique a : forall b u u',
  forallb is_digit a = true -> forallb is_digit b = true -> starts_nondigit u -> starts_nondigit u' ->
  a ++ u = b ++ u' -> a = b /\ u = u'.
Proof.
  induction a as [|x a IH]; intros [|y b] u u' Ha Hb Hu Hu'; simpl in *.
  - auto.
  - intros ->. simpl in Hu. apply andb_prop in Hb. destruct Hb. congruence.
  - intros <-. simpl in Hu'. apply andb_prop in Ha. destruct Ha. congruence.
  - intros [= -> H]. apply andb_prop in Ha. apply andb_prop in Hb.
    apply IH in H; try tauto. destruct H. subst. auto.
Qed.

Theorem fnv_preimage_injective x y u u' :
  x < 10 ^ 21 -> y < 10 ^ 21 -> starts_nondigit u -> starts_nondigit u' ->
  pad16 x ++ u = pad16 y ++ u' -> x = y /\ u = u'.
Proof.
  intros Hx Hy Hu Hu' H. apply digit_prefix_unique in H; auto using pad16_digits.
  destruct H as [H ->]. split; [|reflexivity].
  rewrite <- (pad16_value x Hx), <- (pad16_value y Hy). now rewrite H.
Qed.

Lemma lxor_bound a b n : a < 2 ^ n -> b < 2 ^ n -> N.lxor a b < 2 ^ n.
Proof.
  intros Ha Hb. destruct (N.eq_dec (N.lxor a b) 0) as [->|Hne]; [apply N.neq_0_lt_0, N.pow_nonzero; lia|].
  apply N.log2_lt_pow2; [lia|].
  eapply N.le_lt_trans; [apply N.log2_lxor|].
  destruct (N.eq_dec a 0) as [->|Ha0]; destruct (N.eq_dec b 0) as [->|Hb0].
  - rewrite N.lxor_0_l in Hne. congruence.
  - rewrite N.max_r by (simpl; lia). apply N.log2_lt_pow2; lia.
  - rewrite N.max_l by (simpl; lia). apply N.log2_lt_pow2; lia.
  - apply N.max_lub_lt; apply N.log2_lt_pow2; lia.
Qed.

Lemma w64_bound x : w64 x < 2 ^ 64.
Proof. unfold w64. apply N.mod_upper_bound. discriminate. Qed.

Lemma shiftr_le x n : N.shiftr x n <= x.
Proof.
  rewrite N.shiftr_div_pow2. pose proof (N.pow_nonzero 2 n) as H.
  apply N.div_le_upper_bound; [apply H; discriminate|]. nia.
Qed.

Lemma xxh64_bound bs : xxh64 bs < 2 ^ 64.
Proof.
  unfold xxh64.
  destruct (if Nat.ltb (length bs) 32 then _ else _) as [h rest].
  destruct (tail8 _ _ rest) as [h1 rest1]. destruct (tail4 h1 rest1) as [h2 rest2].
  unfold avalanche. cbv zeta. apply lxor_bound; [apply w64_bound|].
  eapply N.le_lt_trans; [apply shiftr_le|apply w64_bound].
Qed.

Lemma xxh64_digits bs : xxh64 bs < 10 ^ 21.
Proof. eapply N.lt_trans; [apply xxh64_bound|reflexivity]. Qed.

Lemma target_hash_eq ls url : target_hash ls url = fnv1a (pad16 (xxh64 (labels_bytes (sort_labels ls))) ++ url).
Proof. reflexivity. Qed.

(* FNV-1a with the 64 low bits taken by a mask. The kernel evaluates `mod 2^64` by long division, a mask bit by bit:
   a concrete hash is some ten times cheaper to evaluate in this form. *)
Definition fnv1a_mask (bs : bytes) : N :=
  fold_left (fun h b => N.land (N.lxor h b * fnv_prime) (N.ones 64)) bs fnv_offset.
Lemma fnv1a_mask_eq bs : fnv1a bs = fnv1a_mask bs.
Proof.
  unfold fnv1a, fnv1a_mask. generalize fnv_offset. induction bs as [|b r IH]; intros h; [reflexivity|].
  cbn [fold_left]. rewrite <- IH. f_equal. unfold fnv1a_step, w64. now rewrite N.land_ones.
Qed.

Theorem distinct_or_collision ls ls' url url' :
  wf_labels (sort_labels ls) -> wf_labels (sort_labels ls') -> starts_nondigit url -> starts_nondigit url' ->
  target_hash ls url = target_hash ls' url' ->
  (sort_labels ls = sort_labels ls' /\ url = url') \/
  (labels_bytes (sort_labels ls) <> labels_bytes (sort_labels ls') /\
   xxh64 (labels_bytes (sort_labels ls)) = xxh64 (labels_bytes (sort_labels ls'))) \/
  (pad16 (xxh64 (labels_bytes (sort_labels ls))) ++ url <> pad16 (xxh64 (labels_bytes (sort_labels ls'))) ++ url' /\
   fnv1a (pad16 (xxh64 (labels_bytes (sort_labels ls))) ++ url) = fnv1a (pad16 (xxh64 (labels_bytes (sort_labels ls'))) ++ url')).
Proof.
  intros Hw Hw' Hu Hu' Hh. rewrite !target_hash_eq in Hh.
  destruct (list_eq_dec N.eq_dec (pad16 (xxh64 (labels_bytes (sort_labels ls))) ++ url) (pad16 (xxh64 (labels_bytes (sort_labels ls'))) ++ url')) as [Hp|Hp];
    [|right; right; split; assumption].
  apply fnv_preimage_injective in Hp; try assumption; try apply xxh64_digits.
  destruct Hp as [Hx ->].
  destruct (list_eq_dec N.eq_dec (labels_bytes (sort_labels ls)) (labels_bytes (sort_labels ls'))) as [Hl|Hl].
  - left. split; [|reflexivity]. now apply labels_bytes_injective.
  - right. left. split; assumption.
Qed.
