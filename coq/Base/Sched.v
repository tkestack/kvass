(* Base/Sched.v — explicit schedules for Go's unspecified choices (map iteration order, random pick).
   A schedule is a list of naturals consumed left to right; every consumption records the arity of
   the choice so that all schedules of a run can be enumerated (odometer). *)
From KV Require Import Base.Util.
From Coq Require Import Permutation.
Local Open Scope list_scope.

Record sst := { s_rest : list nat; s_trace : list nat (* arities consumed, newest first *) }.
Definition sst_of (sch : list nat) : sst := {| s_rest := sch; s_trace := [] |}.

(* choose among n alternatives (n >= 2 consumes one schedule entry; otherwise nothing to choose) *)
Definition choose (n : nat) (s : sst) : nat * sst :=
  match n with
  | 0 | 1 => (0, s)
  | _ => match s_rest s with
         | [] => (0, {| s_rest := []; s_trace := n :: s_trace s |})
         | c :: r => (c mod n, {| s_rest := r; s_trace := n :: s_trace s |})
         end
  end.

Fixpoint remove_nth {A} (i : nat) (l : list A) : list A :=
  match l, i with
  | [], _ => []
  | _ :: t, 0 => t
  | x :: t, S j => x :: remove_nth j t
  end.

(* an arbitrary iteration order over l *)
Fixpoint order_fuel {A} (fuel : nat) (l : list A) (s : sst) : list A * sst :=
  match fuel with
  | 0 => ([], s)
  | S f =>
    match l with
    | [] => ([], s)
    | d :: _ =>
      let (i, s1) := choose (length l) s in
      let (r, s2) := order_fuel f (remove_nth i l) s1 in
      (nth i l d :: r, s2)
    end
  end.
Definition order {A} (l : list A) (s : sst) : list A * sst := order_fuel (length l) l s.

Lemma choose_lt n s : (0 < n)%nat -> (fst (choose n s) < n)%nat.
Proof.
  intros H. unfold choose. destruct n as [|[|n]]; cbn [fst]; try lia.
  destruct (s_rest s); cbn [fst]; [lia|]. apply Nat.mod_upper_bound. lia.
Qed.

Lemma remove_nth_perm {A} (d : A) i l : (i < length l)%nat -> Permutation (nth i l d :: remove_nth i l) l.
Proof.
  revert i. induction l as [|x t IH]; intros i H; simpl in *; [lia|].
  destruct i as [|j]; [reflexivity|].
  etransitivity; [apply perm_swap|]. constructor. apply IH. lia.
Qed.

Lemma remove_nth_length {A} i (l : list A) : (i < length l)%nat -> length (remove_nth i l) = pred (length l).
Proof.
  revert i. induction l as [|x t IH]; intros i H; simpl in *; [lia|].
  destruct i as [|j]; [reflexivity|]. simpl. rewrite IH by lia. destruct t; simpl in *; lia.
Qed.

Lemma order_fuel_perm {A} fuel (l : list A) s :
  (length l <= fuel)%nat -> Permutation (fst (order_fuel fuel l s)) l.
Proof.
  revert l s. induction fuel as [|f IH]; intros l s H.
  - destruct l; simpl in *; [constructor|lia].
  - destruct l as [|d t]; [constructor|].
    cbn [order_fuel].
    destruct (choose (length (d :: t)) s) as [i s1] eqn:Ec.
    assert (Hi : (i < length (d :: t))%nat).
    { change i with (fst (i, s1)). rewrite <- Ec. apply choose_lt. simpl; lia. }
    destruct (order_fuel f (remove_nth i (d :: t)) s1) as [r s2] eqn:Eo.
    cbn [fst].
    etransitivity; [|apply remove_nth_perm with (d := d); exact Hi].
    constructor.
    change r with (fst (r, s2)). rewrite <- Eo. apply IH.
    rewrite remove_nth_length by assumption. simpl in *. lia.
Qed.

Lemma order_perm {A} (l : list A) s : Permutation (fst (order l s)) l.
Proof. apply order_fuel_perm. lia. Qed.

(* enumeration of all schedules of a run: an odometer over the recorded arities. `next_sched` takes the schedule just
   run (padded with zeros to the trace length by `pad`) and the arities, and gives the next schedule *)
Fixpoint pad (sch : list nat) (n : nat) : list nat :=
  match n with
  | 0 => []
  | S k => match sch with [] => 0 :: pad [] k | c :: r => c :: pad r k end
  end.

(* work on reversed lists: increment the last position that can be incremented, drop what follows *)
Fixpoint next_rev (sch_rev ar_rev : list nat) : option (list nat) :=
  match sch_rev, ar_rev with
  | c :: cs, a :: ars => if Nat.ltb (S (c mod a)) a then Some (S (c mod a) :: cs) else next_rev cs ars
  | _, _ => None
  end.

Definition next_sched (sch : list nat) (trace_newest_first : list nat) : option (list nat) :=
  let n := length trace_newest_first in
  match next_rev (rev (pad sch n)) trace_newest_first with
  | Some r => Some (rev r)
  | None => None
  end.

Section Enum.
Context {O : Type} (runf : list nat -> O * list nat).   (* output and arity trace (newest first) *)
Fixpoint enum_from (fuel : nat) (sch : list nat) (acc : list O) : list O * bool :=
  match fuel with
  | 0 => (acc, false)                       (* budget exhausted: enumeration incomplete *)
  | S f =>
    let (o, tr) := runf sch in
    match next_sched sch tr with
    | None => (o :: acc, true)
    | Some sch' => enum_from f sch' (o :: acc)
    end
  end.
Definition enum_all (fuel : nat) : list O * bool := enum_from fuel [] [].
End Enum.
