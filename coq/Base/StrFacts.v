(* Base/StrFacts.v — facts about strings, decimal rendering and string-keyed association lists (Base.Util.lookup). *)
From KV Require Import Base.Util.
From Coq Require Import Ascii DecimalString DecimalN DecimalPos Decimal Permutation.
Local Open Scope string_scope.
Local Open Scope list_scope.

Lemma sapp_assoc (a b c : string) : (a +++ b) +++ c = a +++ b +++ c.
Proof. induction a as [|x a IH]; simpl; [reflexivity | now rewrite IH]. Qed.

Lemma sapp_nil_r (a : string) : a +++ "" = a.
Proof. induction a as [|x a IH]; simpl; [reflexivity | now rewrite IH]. Qed.

Lemma sapp_inv_head (a b c : string) : a +++ b = a +++ c -> b = c.
Proof. induction a as [|x a IH]; simpl; intros H; [exact H | injection H; auto]. Qed.

Lemma sapp_length (a b : string) : String.length (a +++ b) = (String.length a + String.length b)%nat.
Proof. induction a as [|x a IH]; simpl; [reflexivity | now rewrite IH]. Qed.

Lemma eqb_sapp_l (p a b : string) : String.eqb (p +++ a) (p +++ b) = String.eqb a b.
Proof. induction p as [|x p IH]; simpl; [reflexivity | now rewrite Ascii.eqb_refl]. Qed.

Lemma str_eqb_refl (s : string) : String.eqb s s = true.
Proof. apply String.eqb_refl. Qed.

Lemma str_mem_In x l : str_mem x l = true <-> In x l.
Proof.
  induction l as [|y l IH]; simpl; [split; [discriminate | tauto]|].
  rewrite orb_true_iff, IH, String.eqb_eq. split; intros [H|H]; auto.
Qed.

Lemma str_mem_false x l : str_mem x l = false <-> ~ In x l.
Proof. rewrite <- str_mem_In. destruct (str_mem x l); split; congruence. Qed.

Definition dash : ascii := "-"%char.
Fixpoint nodash (s : string) : bool :=
  match s with
  | EmptyString => true
  | String c r => negb (Ascii.eqb c dash) && nodash r
  end.

Lemma nodash_app_dash a b : nodash (a +++ String dash b) = false.
Proof.
  induction a as [|x a IH]; simpl.
  - reflexivity.
  - rewrite IH. apply andb_false_r.
Qed.

Lemma last_field_inj a b d1 d2 :
  nodash d1 = true -> nodash d2 = true ->
  a +++ String dash d1 = b +++ String dash d2 -> d1 = d2.
Proof.
  revert b. induction a as [|x a IH]; intros b H1 H2 E.
  - destruct b as [|y b]; simpl in E.
    + now injection E.
    + injection E as _ E. rewrite E, nodash_app_dash in H1. discriminate.
  - destruct b as [|y b]; simpl in E.
    + injection E as _ E. rewrite <- E, nodash_app_dash in H2. discriminate.
    + injection E as _ E. eauto.
Qed.

Lemma nodash_uint d : nodash (NilEmpty.string_of_uint d) = true.
Proof. induction d; simpl; auto. Qed.

Lemma nodash_dec n : nodash (dec n) = true.
Proof.
  unfold dec, NilZero.string_of_uint.
  destruct (N.to_uint n); try apply nodash_uint. reflexivity.
Qed.

Lemma N_to_uint_nonnil n : N.to_uint n <> Nil.
Proof.
  destruct n as [|p]; simpl; [discriminate|]. apply Unsigned.to_uint_nonnil.
Qed.

Lemma dec_inj n m : dec n = dec m -> n = m.
Proof.
  unfold dec. intros E.
  apply DecimalN.Unsigned.to_uint_inj.
  pose proof (NilZero.usu (N.to_uint n) (N_to_uint_nonnil n)) as Hn.
  pose proof (NilZero.usu (N.to_uint m) (N_to_uint_nonnil m)) as Hm.
  rewrite E in Hn. rewrite Hn in Hm. now injection Hm.
Qed.

Lemma decZ_nonneg z : (0 <= z)%Z -> decZ z = dec (Z.to_N z).
Proof. destruct z; simpl; try reflexivity. lia. Qed.

(* association lists with string keys, read by Base.Util.lookup *)
Section Assoc.
Context {V : Type}.
Implicit Type m : list (string * V).

Lemma lookup_some_in k v m : lookup k m = Some v -> In (k, v) m.
Proof.
  induction m as [|[k' v'] r IH]; simpl; [discriminate|].
  destruct (String.eqb_spec k k') as [->|]; [intros [= ->]; auto | auto].
Qed.

Lemma lookup_notin k m : ~ In k (map fst m) -> lookup k m = None.
Proof.
  induction m as [|[k' v'] r IH]; simpl; intros H; [reflexivity|].
  destruct (String.eqb_spec k k') as [->|]; [exfalso; apply H; now left|]. apply IH. intros Hin. apply H. now right.
Qed.

Lemma lookup_in_nd k v m : NoDup (map fst m) -> In (k, v) m -> lookup k m = Some v.
Proof.
  induction m as [|[k' v'] r IH]; simpl; [tauto|]. intros H [Hin|Hin].
  - injection Hin as -> ->. now rewrite String.eqb_refl.
  - apply NoDup_cons_iff in H. destruct H as [Hn Hr]. destruct (String.eqb_spec k k') as [->|]; [|auto].
    exfalso. apply Hn. exact (in_map fst _ _ Hin).
Qed.

Lemma lookup_perm k m m' : NoDup (map fst m) -> Permutation m m' -> lookup k m = lookup k m'.
Proof.
  intros Hnd Hp.
  assert (Hnd' : NoDup (map fst m')) by (eapply Permutation_NoDup; [apply Permutation_map; exact Hp|exact Hnd]).
  destruct (lookup k m) as [v|] eqn:E.
  - symmetry. apply lookup_in_nd; [exact Hnd'|]. eapply Permutation_in; [exact Hp|]. now apply lookup_some_in.
  - destruct (lookup k m') as [v'|] eqn:E'; [|reflexivity].
    apply lookup_some_in in E'. apply (Permutation_in _ (Permutation_sym Hp)) in E'.
    apply (lookup_in_nd _ _ _ Hnd) in E'. congruence.
Qed.

Lemma lookup_filter_key (P : string -> bool) k m :
  lookup k (filter (fun kv => P (fst kv)) m) = if P k then lookup k m else None.
Proof.
  induction m as [|[k' v] r IH]; simpl; [now destruct (P k)|].
  destruct (P k') eqn:Ek'; simpl; (destruct (String.eqb_spec k k') as [->|Hne]; [now rewrite ?IH, Ek'|exact IH]).
Qed.

Lemma lookup_app k m m' : lookup k (m ++ m') = match lookup k m with Some v => Some v | None => lookup k m' end.
Proof. induction m as [|[k' v'] r IH]; simpl; [reflexivity|]. destruct (String.eqb k k'); auto. Qed.

Lemma notin_keys_del k m : ~ In k (map fst (filter (fun kv => negb (String.eqb (fst kv) k)) m)).
Proof.
  intros Hin. apply in_map_iff in Hin. destruct Hin as [[k' v] [<- Hin]]. apply filter_In in Hin.
  cbn [fst] in Hin. rewrite String.eqb_refl in Hin. destruct Hin. discriminate.
Qed.
End Assoc.
