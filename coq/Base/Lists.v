(* Base/Lists.v — facts about lists that the standard library lacks. *)
From KV Require Import Base.Util.
From Coq Require Import Permutation Sorted.
Local Open Scope list_scope.

Lemma fold_left_inv_in {A B} (f : A -> B -> A) (P : A -> Prop) l a :
  P a -> (forall a b, In b l -> P a -> P (f a b)) -> P (fold_left f l a).
Proof.
  revert a. induction l as [|b t IH]; simpl; intros a Ha Hs; [assumption|].
  apply IH; [apply Hs; auto | intros; apply Hs; auto].
Qed.

Lemma fold_left_inv {A B} (f : A -> B -> A) (P : A -> Prop) l a :
  P a -> (forall a b, P a -> P (f a b)) -> P (fold_left f l a).
Proof. intros Ha Hs. apply fold_left_inv_in; auto. Qed.

Lemma existsb_eqb_in x l : existsb (N.eqb x) l = true <-> In x l.
Proof.
  rewrite existsb_exists. split.
  - intros [y [Hy He]]. apply N.eqb_eq in He. now subst.
  - intros H. exists x. split; [assumption|apply N.eqb_refl].
Qed.

Lemma existsb_false {A} (f : A -> bool) l : existsb f l = false <-> forall x, In x l -> f x = false.
Proof.
  rewrite <- Bool.not_true_iff_false, existsb_exists. split.
  - intros H x Hin. destruct (f x) eqn:E; [exfalso; eauto | reflexivity].
  - intros H [x [Hin Hx]]. rewrite (H x Hin) in Hx. discriminate.
Qed.

Lemma last_in {A} (l : list A) d : l <> [] -> In (last l d) l.
Proof.
  induction l as [|x r IH]; [congruence|]. intros _. destruct r as [|y r']; [now left|].
  right. apply IH. discriminate.
Qed.

Lemma nth_firstn_lt {A} (l : list A) n k d : (k < n)%nat -> nth k (firstn n l) d = nth k l d.
Proof.
  revert n k. induction l as [|x r IH]; intros n k Hk; [now rewrite firstn_nil|].
  destruct n as [|n]; [lia|]. destruct k as [|k]; simpl; [reflexivity|]. apply IH. lia.
Qed.

Lemma Forall_nth_d {A} (P : A -> Prop) l d k : Forall P l -> P d -> P (nth k l d).
Proof.
  intros Hl Hd. destruct (nth_in_or_default k l d) as [Hin| ->]; [|exact Hd]. rewrite Forall_forall in Hl. auto.
Qed.

Lemma filter_all {A} (f : A -> bool) l : (forall x, In x l -> f x = true) -> filter f l = l.
Proof.
  induction l as [|x t IH]; intros H; [reflexivity|]. simpl. rewrite (H x (or_introl eq_refl)). f_equal. apply IH.
  intros y Hy. apply H. now right.
Qed.

Lemma map_same {A} (f : A -> A) l : (forall x, In x l -> f x = x) -> map f l = l.
Proof. intros H. rewrite <- (map_id l) at 2. now apply map_ext_in. Qed.

Lemma fold_left_same {A B} (f : A -> B -> A) l a : (forall b, In b l -> f a b = a) -> fold_left f l a = a.
Proof.
  induction l as [|b t IH]; intros H; [reflexivity|]. simpl. rewrite (H b (or_introl eq_refl)). apply IH.
  intros y Hy. apply H. now right.
Qed.

Lemma NoDup_map_filter {A B} (g : A -> B) (f : A -> bool) l : NoDup (map g l) -> NoDup (map g (filter f l)).
Proof.
  induction l as [|x r IH]; simpl; [auto|]. intros H. apply NoDup_cons_iff in H. destruct H as [Hn Hr].
  destruct (f x); simpl; [|auto]. constructor; [|auto].
  intros Hin. apply Hn. apply in_map_iff in Hin. destruct Hin as [y [Hy Hin]]. apply filter_In in Hin.
  apply in_map_iff. exists y. tauto.
Qed.

(* a non-empty list has a least element for a relation that is total and transitive on it *)
Lemma least_of_total {A} (R : A -> A -> Prop) (l : list A) :
  (forall x y, In x l -> In y l -> x = y \/ R x y \/ R y x) ->
  (forall x y z, In y l -> R x y -> R y z -> R x z) ->
  l <> [] -> exists m, In m l /\ forall x, In x l -> x = m \/ R m x.
Proof.
  intros Htot Htr. induction l as [|a r IH]; [congruence|]. intros _.
  destruct r as [|b r']; [exists a; split; [now left|]; intros x [<-|[]]; now left|].
  destruct IH as (m & Hm & Hleast); [intros x y Hx Hy; apply Htot; now right| |discriminate|].
  { intros x y z Hy. apply Htr. now right. }
  destruct (Htot a m (or_introl eq_refl) (or_intror Hm)) as [<-|[Ham|Hma]].
  - exists a. split; [now left|]. intros x [<-|Hx]; [now left|now apply Hleast].
  - exists a. split; [now left|]. intros x [<-|Hx]; [now left|]. right.
    destruct (Hleast x Hx) as [->|Hmx]; [exact Ham|]. apply (Htr a m x); [now right|exact Ham|exact Hmx].
  - exists m. split; [now right|]. intros x [<-|Hx]; [now right|now apply Hleast].
Qed.

Lemma filter_comm {A} (f g : A -> bool) l : filter f (filter g l) = filter g (filter f l).
Proof. induction l as [|x t IH]; simpl; [reflexivity|]. destruct (f x) eqn:Ef, (g x) eqn:Eg; simpl; rewrite ?Ef, ?Eg, IH; reflexivity. Qed.

Lemma filter_absorb {A} (f g : A -> bool) l : (forall x, f x = true -> g x = true) -> filter f (filter g l) = filter f l.
Proof.
  intros H. induction l as [|x t IH]; simpl; [reflexivity|]. destruct (g x) eqn:Eg; simpl; [now rewrite IH|].
  destruct (f x) eqn:Ef; [rewrite (H x Ef) in Eg; discriminate|exact IH].
Qed.

Lemma In_zrange lo hi i : In i (zrange lo hi) <-> (lo <= i < hi)%Z.
Proof.
  unfold zrange, zrange_up. rewrite in_map_iff. split.
  - intros [k [<- Hk]]. apply in_seq in Hk. lia.
  - intros H. exists (Z.to_nat (i - lo)). split; [lia|]. apply in_seq. lia.
Qed.

(* insertion sort for a test `before`: the sorts of the models (label names, query keys) are instances by conversion *)
Section Insert.
Context {A : Type} (before : A -> A -> bool).

Fixpoint ins (x : A) (l : list A) : list A :=
  match l with [] => [x] | y :: r => if before x y then x :: l else y :: ins x r end.

Lemma ins_perm x l : Permutation (ins x l) (x :: l).
Proof.
  induction l as [|y r IH]; simpl; [reflexivity|]. destruct (before x y); [reflexivity|]. rewrite IH. apply perm_swap.
Qed.

Lemma isort_perm l : Permutation (fold_right ins [] l) l.
Proof. induction l as [|x r IH]; simpl; [reflexivity|]. rewrite ins_perm. now constructor. Qed.

Variable R : A -> A -> Prop.

(* the test decides the order of x and every element it meets *)
Lemma ins_sorted x l : (forall a b c, R a b -> R b c -> R a c) ->
  (forall y, In y l -> if before x y then R x y else R y x) ->
  StronglySorted R l -> StronglySorted R (ins x l).
Proof.
  intros Rtrans. induction l as [|y r IH]; intros Hx Hs; simpl; [repeat constructor|].
  apply StronglySorted_inv in Hs. destruct Hs as [Hr Hall]. pose proof (Hx y (or_introl eq_refl)) as Hy.
  destruct (before x y).
  - constructor; [now constructor|]. constructor; [exact Hy|]. eapply Forall_impl; [|exact Hall]. intros z. now apply Rtrans.
  - constructor; [apply IH; [intros z Hz; apply Hx; now right|exact Hr]|].
    eapply Permutation_Forall; [symmetry; apply ins_perm|]. now constructor.
Qed.

Lemma isort_sorted {K} (key : A -> K) l :
  (forall x r, ~ In (key x) (map key r) -> StronglySorted R r -> StronglySorted R (ins x r)) ->
  NoDup (map key l) -> StronglySorted R (fold_right ins [] l).
Proof.
  intros Hins. induction l as [|x r IH]; simpl; intros Hnd; [constructor|].
  apply NoDup_cons_iff in Hnd. destruct Hnd as [Hn Hr]. apply Hins; [|now apply IH].
  intros Hin. apply Hn. revert Hin. apply Permutation_in, Permutation_map, isort_perm.
Qed.

(* a list sorted for an asymmetric relation is determined by its elements *)
Lemma sorted_perm_unique l : (forall a b, R a b -> R b a -> False) -> forall l',
  StronglySorted R l -> StronglySorted R l' -> Permutation l l' -> l = l'.
Proof.
  intros asym. induction l as [|a r IH]; intros l' Hs Hs' Hp.
  - apply Permutation_nil in Hp. now subst.
  - destruct l' as [|a' r']; [apply Permutation_sym, Permutation_nil in Hp; discriminate|].
    inversion Hs as [|? ? Hr Hall]; subst. inversion Hs' as [|? ? Hr' Hall']; subst.
    assert (a = a').
    { assert (Hin : In a (a' :: r')) by (eapply Permutation_in; [exact Hp|left; reflexivity]).
      assert (Hin' : In a' (a :: r)) by (eapply Permutation_in; [symmetry; exact Hp|left; reflexivity]).
      destruct Hin as [->|Hin]; [reflexivity|]. destruct Hin' as [->|Hin']; [reflexivity|].
      rewrite Forall_forall in Hall, Hall'. exfalso. eapply asym; [apply Hall; exact Hin' | apply Hall'; exact Hin]. }
    subst a'. f_equal. apply IH; auto. eapply Permutation_cons_inv; exact Hp.
Qed.
End Insert.

Lemma map_inj_Forall {A B} (f : A -> B) l :
  Forall (fun x => forall y, f x = f y -> x = y) l -> forall l', map f l = map f l' -> l = l'.
Proof.
  induction 1 as [|x r Hx _ IH]; intros [|y r']; simpl; try discriminate; [reflexivity|].
  intros [= H1 H2]. f_equal; auto.
Qed.

Lemma map_seq_nth {A B} (f : A -> B) (g : nat -> A) (l : list A) :
  (forall i a, nth_error l i = Some a -> g i = a) ->
  map (fun i => f (g i)) (seq 0 (length l)) = map f l.
Proof.
  intros H.
  assert (G : forall k l', (forall i a, nth_error l' i = Some a -> g (k + i)%nat = a) ->
              map (fun i => f (g i)) (seq k (length l')) = map f l').
  { intros k l'. revert k. induction l' as [|a l' IH]; intros k Hk; simpl; [reflexivity|].
    f_equal.
    - f_equal. rewrite <- (Hk 0%nat a eq_refl). f_equal. lia.
    - apply IH. intros i b Hi. rewrite <- (Hk (S i) b Hi). f_equal. lia. }
  apply (G 0%nat l). exact H.
Qed.
