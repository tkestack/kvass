(* Base/AMap.v — association maps with N keys (Go map[uint64]V), insertion order kept explicit. *)
From KV Require Import Base.Util.
From KV Require Export Base.Lists.
From Coq Require Permutation.
Local Open Scope list_scope.

Section AMap.
Context {V : Type}.
Definition amap := list (N * V).

Fixpoint afind (k : N) (m : amap) : option V :=
  match m with
  | [] => None
  | (k', v) :: t => if N.eqb k k' then Some v else afind k t
  end.

(* m[k] = v : replace in place when present, append otherwise *)
Fixpoint aset (k : N) (v : V) (m : amap) : amap :=
  match m with
  | [] => [(k, v)]
  | (k', v') :: t => if N.eqb k k' then (k, v) :: t else (k', v') :: aset k v t
  end.

Definition adel (k : N) (m : amap) : amap := filter (fun kv => negb (N.eqb k (fst kv))) m.
Definition akeys (m : amap) : list N := map fst m.
Definition amem (k : N) (m : amap) : bool := match afind k m with Some _ => true | None => false end.

Lemma afind_aset k k' v m : afind k' (aset k v m) = if N.eqb k' k then Some v else afind k' m.
Proof.
  induction m as [|[k2 v2] t IH]; simpl; [reflexivity|].
  destruct (N.eqb_spec k k2) as [->|Hk]; simpl; [now destruct (N.eqb k' k2)|].
  rewrite IH. destruct (N.eqb_spec k' k2) as [->|]; [|reflexivity].
  now destruct (N.eqb_spec k2 k) as [->|].
Qed.

Lemma afind_aset_eq k v m : afind k (aset k v m) = Some v.
Proof. now rewrite afind_aset, N.eqb_refl. Qed.

Lemma afind_aset_neq k k' v m : k <> k' -> afind k' (aset k v m) = afind k' m.
Proof. intros H. rewrite afind_aset. now destruct (N.eqb_spec k' k) as [->|]. Qed.

Lemma afind_In k m v : afind k m = Some v -> In (k, v) m.
Proof.
  induction m as [|[k' v'] t IH]; simpl; [discriminate|].
  destruct (N.eqb_spec k k'); [intros [= ->]; subst; auto | auto].
Qed.

Lemma afind_some_keys k m : (exists v, afind k m = Some v) <-> In k (akeys m).
Proof.
  induction m as [|[k' v'] t IH]; simpl.
  - split; [intros [v H]; discriminate | tauto].
  - destruct (N.eqb_spec k k').
    + subst. split; eauto.
    + rewrite IH. split; [auto | intros [H|H]; [congruence|assumption]].
Qed.

Lemma afind_none_keys k m : afind k m = None <-> ~ In k (akeys m).
Proof.
  rewrite <- afind_some_keys. destruct (afind k m) as [x|]; split; try congruence.
  - intros H. exfalso. eauto.
  - intros _ [y H]. discriminate.
Qed.

Lemma amem_keys k m : amem k m = true <-> In k (akeys m).
Proof.
  unfold amem. rewrite <- afind_some_keys. destruct (afind k m) as [x|]; split.
  - eauto.
  - reflexivity.
  - discriminate.
  - intros [y H]. discriminate.
Qed.

Lemma In_afind_nodup k v m : NoDup (akeys m) -> In (k, v) m -> afind k m = Some v.
Proof.
  induction m as [|[k' v'] t IH]; simpl; [tauto|].
  intros Hnd [H|H].
  - injection H as -> ->. now rewrite N.eqb_refl.
  - inversion Hnd as [|? ? Hk Ht]; subst.
    destruct (N.eqb_spec k k'); [|auto].
    subst. exfalso. apply Hk. change (In (fst (k', v)) (map fst t)). now apply in_map.
Qed.

Lemma akeys_aset_in k v m : In k (akeys m) -> akeys (aset k v m) = akeys m.
Proof.
  induction m as [|[k' v'] t IH]; simpl; [tauto|].
  destruct (N.eqb_spec k k'); simpl; [now subst|].
  intros [H|H]; [congruence|]. now rewrite IH.
Qed.

Lemma akeys_aset_notin k v m : ~ In k (akeys m) -> akeys (aset k v m) = akeys m ++ [k].
Proof.
  induction m as [|[k' v'] t IH]; simpl; [reflexivity|].
  destruct (N.eqb_spec k k'); simpl; [subst; tauto|].
  intros H. rewrite IH; tauto.
Qed.

Lemma In_akeys_aset k k' v m : In k' (akeys (aset k v m)) <-> k' = k \/ In k' (akeys m).
Proof.
  rewrite <- !afind_some_keys. destruct (N.eq_dec k k') as [->|Hne].
  - rewrite afind_aset_eq. split; eauto.
  - rewrite afind_aset_neq by assumption. split; [auto | intros [H|H]; [congruence|assumption]].
Qed.

Lemma NoDup_akeys_aset k v m : NoDup (akeys m) -> NoDup (akeys (aset k v m)).
Proof.
  intros H. destruct (in_dec N.eq_dec k (akeys m)) as [Hin|Hn].
  - now rewrite akeys_aset_in.
  - rewrite akeys_aset_notin by assumption.
    apply (Permutation.Permutation_NoDup (l := k :: akeys m)).
    + apply Permutation.Permutation_cons_append.
    + now constructor.
Qed.

Lemma afind_adel k k' m : afind k' (adel k m) = if N.eqb k' k then None else afind k' m.
Proof.
  induction m as [|[k2 v2] t IH]; simpl; [now destruct (N.eqb k' k)|].
  destruct (N.eqb_spec k k2) as [->|Hk]; simpl; [rewrite IH; now destruct (N.eqb k' k2)|].
  rewrite IH. destruct (N.eqb_spec k' k2) as [->|]; [|reflexivity]. now destruct (N.eqb_spec k2 k) as [->|].
Qed.

Lemma In_akeys_adel k k' m : In k' (akeys (adel k m)) <-> k' <> k /\ In k' (akeys m).
Proof.
  rewrite <- !afind_some_keys, afind_adel. destruct (N.eqb_spec k' k) as [->|Hne].
  - split; [intros [v H]; discriminate | tauto].
  - tauto.
Qed.

Lemma afind_filter (f : N * V -> bool) k m :
  NoDup (akeys m) ->
  afind k (filter f m) = match afind k m with Some v => if f (k, v) then Some v else None | None => None end.
Proof.
  induction m as [|[k' v'] t IH]; simpl; [reflexivity|].
  intros Hnd. inversion Hnd as [|? ? Hk Ht]; subst. specialize (IH Ht).
  destruct (N.eqb_spec k k') as [->|Hne].
  - destruct (f (k', v')); simpl; [now rewrite N.eqb_refl|].
    rewrite IH. now rewrite (proj2 (afind_none_keys k' t) Hk).
  - destruct (f (k', v')); simpl; [|exact IH]. now destruct (N.eqb_spec k k').
Qed.

Lemma afind_filter_iff (f : N * V -> bool) k v m : NoDup (akeys m) ->
  (afind k (filter f m) = Some v <-> afind k m = Some v /\ f (k, v) = true).
Proof.
  intros Hnd. rewrite afind_filter by assumption. destruct (afind k m) as [x|]; [|split; [discriminate|now intros [? _]]].
  destruct (f (k, x)) eqn:E; split; try discriminate; [now intros [= <-] | now intros [[= <-] _] | intros [[= <-] H]; congruence].
Qed.

Lemma NoDup_akeys_filter (f : N * V -> bool) m : NoDup (akeys m) -> NoDup (akeys (filter f m)).
Proof. apply NoDup_map_filter. Qed.

End AMap.
Arguments amap : clear implicits.

(* a map whose values are rewritten entry by entry: look-ups commute with the rewriting, the keys stay *)
Lemma afind_map {A B} (g : N -> A -> B) k (m : amap A) :
  afind k (map (fun kv => (fst kv, g (fst kv) (snd kv))) m) = option_map (g k) (afind k m).
Proof.
  induction m as [|[k' a] r IH]; cbn; [reflexivity|].
  destruct (N.eqb_spec k k') as [->|]; [reflexivity|exact IH].
Qed.

Lemma akeys_map {A B} (g : N -> A -> B) (m : amap A) :
  akeys (map (fun kv => (fst kv, g (fst kv) (snd kv))) m) = akeys m.
Proof. unfold akeys. rewrite map_map. reflexivity. Qed.

Lemma akeys_nil {V} (m : amap V) : akeys m = [] <-> m = [].
Proof. split; [apply map_eq_nil | now intros ->]. Qed.

Lemma amem_aset {V} j k (v : V) m : amem j (aset k v m) = N.eqb j k || amem j m.
Proof. unfold amem. rewrite afind_aset. now destruct (N.eqb j k). Qed.

(* a map listed key by key: each key of l that g knows, with g's value *)
Lemma afind_flat_map_opt {V X} (key : X -> N) (g : N -> option V) (l : list X) j :
  afind j (flat_map (fun x => match g (key x) with Some v => [(key x, v)] | None => [] end) l) =
  if existsb (N.eqb j) (map key l) then g j else None.
Proof.
  induction l as [|x l IH]; [reflexivity|]. cbn [flat_map map existsb].
  destruct (N.eqb_spec j (key x)) as [->|Hne]; cbn [orb].
  - destruct (g (key x)); cbn; [now rewrite N.eqb_refl|]. rewrite IH. now destruct (existsb _ _).
  - destruct (g (key x)); cbn; [destruct (N.eqb_spec j (key x)); [contradiction|]|]; exact IH.
Qed.

Lemma afind_map_fun {V} (g : N -> V) h l :
  afind h (map (fun x => (x, g x)) l) = if existsb (N.eqb h) l then Some (g h) else None.
Proof. induction l as [|x r IH]; cbn; [reflexivity|]. destruct (N.eqb_spec h x) as [->|]; [reflexivity|exact IH]. Qed.
