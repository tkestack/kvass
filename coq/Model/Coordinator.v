(* Model/Coordinator.v — executable model of one coordination cycle of one replica:
   pkg/coordinator/coordinator.go runOnce (body of the per-replica loop) and everything it calls
   in pkg/coordinator/rebalance.go, plus the caching/needUpdate logic of pkg/shard/shard.go.
   Go's unspecified choices (map iteration order, weightedrand.Pick) are taken from an explicit
   schedule (Base/Sched.v); theorems quantify over all schedules.
   Constants come from Gen/Consts.v, which is regenerated from /repo's source on every run. *)
From KV Require Import Base.Util Base.AMap Base.Sched Base.Float64 Gen.Consts.
Local Open Scope list_scope.
Local Open Scope Z_scope.

(* ------------------------------------------------------------------ data *)
Inductive tstate := Normal | InTransfer.
Inductive health := Good | Bad | Unknown.
Definition tstate_eqb (a b : tstate) : bool :=
  match a, b with Normal, Normal | InTransfer, InTransfer => true | _, _ => false end.
Definition health_eqb (a b : health) : bool :=
  match a, b with Good, Good | Bad, Bad | Unknown, Unknown => true | _, _ => false end.

(* target.ScrapeStatus, the fields the coordinator reads *)
Record cstat := { c_state : tstate; c_health : health; c_series : Z; c_total : Z; c_times : N }.
Definition set_state (c : cstat) (s : tstate) : cstat :=
  {| c_state := s; c_health := c_health c; c_series := c_series c; c_total := c_total c; c_times := c_times c |}.
(* target.NewScrapeStatus(0, 0) *)
Definition fresh_status : cstat := {| c_state := Normal; c_health := Unknown; c_series := 0; c_total := 0; c_times := 0 |}.

(* shard.RuntimeInfo; the config hash is abstracted to "equals the coordinator's";
   IdleStartAt is abstracted to the idle age  now - IdleStartAt *)
Record runtime := { r_head : Z; r_proc : Z; r_hash_ok : bool; r_idle : option Z }.
Definition zero_runtime : runtime := {| r_head := 0; r_proc := 0; r_hash_ok := false; r_idle := None |}.

(* what one shard answers during the cycle (scripted replies) *)
Record shard_in := {
  sh_ready : bool;
  sh_status : option (amap cstat);   (* GET targets/status : None = request fails *)
  sh_rt1 : option runtime;           (* first GET runtimeinfo *)
  sh_push_ok : bool;                 (* POST status/config succeeds *)
  sh_rt2 : option runtime;           (* GET runtimeinfo after a config push *)
  sh_post_ok : bool;                 (* POST shard/targets succeeds *)
}.

Record opts := { max_head : Z; max_proc : Z; max_shard : Z; min_shard : Z; max_idle : Z; disable_alleviate : bool }.

Record input := {
  i_shards : list shard_in;
  i_active : list (N * N);           (* discovered targets: hash -> job *)
  i_explore : amap cstat;            (* explorer results (getExploreResult) *)
  i_scale1_ok : bool;                (* early ChangeScale succeeds *)
}.

Inductive req := GetStatus | GetRuntime | PostConfig | PostTargets | PostExtra.
Definition req_eqb (a b : req) : bool :=
  match a, b with
  | GetStatus, GetStatus | GetRuntime, GetRuntime | PostConfig, PostConfig
  | PostTargets, PostTargets | PostExtra, PostExtra => true
  | _, _ => false
  end.

(* per-shard planning state: rebalance.go shardInfo *)
Record sinfo := {
  si_ok : bool;                      (* changeAble *)
  si_scr : option (amap cstat);      (* scraping; None = Go nil map *)
  si_head : Z; si_proc : Z;          (* runtime.HeadSeries / ProcessSeries (running loads) *)
  si_idle : option Z;                (* idle age when IdleStartAt != nil *)
}.
Definition plan := list sinfo.

Inductive ev_kind := First | ReliefHead | ReliefProc | ScaleDown.
Record event := {
  ev_kind_of : ev_kind; ev_hash : N; ev_from : option nat; ev_to : nat;
  ev_series : Z; ev_total : Z; ev_head_before : Z; ev_proc_before : Z;
  ev_times : N;                      (* scrape count of the copy that is placed / moved *)
}.

(* a posted target: hash, job, state, series *)
Record ptarget := { pt_hash : N; pt_job : N; pt_state : tstate; pt_series : Z }.

Record output := {
  o_logs : list (list req);              (* per shard: ordered request log *)
  o_posts : list (option (list ptarget));(* per shard: body of POST shard/targets, if one was sent *)
  o_scales : list Z;                     (* every ChangeScale argument, in order *)
  o_events : list event;                 (* placements, in order *)
  o_plan : plan;                         (* final plan (for statements) *)
  o_infos : plan;                        (* plan right after getShardInfos (for statements) *)
  o_skipped : bool;                      (* replica skipped after a failing early ChangeScale *)
  o_divzero : bool;                      (* integer division by zero in tryScaleUp (a Go panic) *)
}.

(* ------------------------------------------------------------------ helpers *)
Definition scr_of (s : sinfo) : amap cstat := match si_scr s with Some m => m | None => [] end.
Definition set_scr (s : sinfo) (m : amap cstat) : sinfo :=
  {| si_ok := si_ok s; si_scr := Some m; si_head := si_head s; si_proc := si_proc s; si_idle := si_idle s |}.
Definition add_load (s : sinfo) (dh dp : Z) : sinfo :=
  {| si_ok := si_ok s; si_scr := si_scr s; si_head := si_head s + dh; si_proc := si_proc s + dp; si_idle := si_idle s |}.

Fixpoint upd {A} (k : nat) (f : A -> A) (l : list A) : list A :=
  match l, k with
  | [], _ => []
  | x :: t, O => f x :: t
  | x :: t, S j => x :: upd j f t
  end.
Definition nth_si (p : plan) (k : nat) : sinfo :=
  nth k p {| si_ok := false; si_scr := None; si_head := 0; si_proc := 0; si_idle := None |}.
Definition indices {A} (l : list A) : list nat := seq 0 (length l).
Definition is_active (active : list (N * N)) (h : N) : bool := amem h active.

(* seriesWithRate *)
Definition series_with_rate (s : Z) (rate : Z * Z) : Z := mul_const s rate.

(* ------------------------------------------------------------------ getOneShardInfo *)
Definition mk_info (ok : bool) (scr : option (amap cstat)) (r : runtime) : sinfo :=
  {| si_ok := ok; si_scr := scr; si_head := r_head r; si_proc := r_proc r; si_idle := r_idle r |}.

Definition get_info (sh : shard_in) : sinfo * list req :=
  if negb (sh_ready sh) then (mk_info false None zero_runtime, [])
  else match sh_status sh with
  | None => (mk_info false (Some []) zero_runtime, [GetStatus])
  | Some st =>
    match sh_rt1 sh with
    | None => (mk_info false (Some st) zero_runtime, [GetStatus; GetRuntime])
    | Some r1 =>
      if r_hash_ok r1 then (mk_info true (Some st) r1, [GetStatus; GetRuntime])
      else if negb (sh_push_ok sh) then (mk_info false (Some st) r1, [GetStatus; GetRuntime; PostConfig])
      else match sh_rt2 sh with
      | None => (mk_info false (Some st) zero_runtime, [GetStatus; GetRuntime; PostConfig; GetRuntime])
      | Some r2 => (mk_info (r_hash_ok r2) (Some st) r2, [GetStatus; GetRuntime; PostConfig; GetRuntime])
      end
    end
  end.

(* the shard's cached copy of its last report (shard.go TargetStatus "must copy"), used by needUpdate *)
Definition cache_of (sh : shard_in) : amap cstat :=
  if sh_ready sh then match sh_status sh with Some st => st | None => [] end else [].

(* ------------------------------------------------------------------ globalScrapeStatus *)
Fixpoint first_known (p : plan) (h : N) : option cstat :=
  match p with
  | [] => None
  | s :: t => match afind h (scr_of s) with
              | Some c => if health_eqb (c_health c) Unknown then first_known t h else Some c
              | None => first_known t h
              end
  end.
Definition global_status (explore : amap cstat) (p : plan) (h : N) : cstat :=
  match first_known p h with
  | Some c => c
  | None => match afind h explore with Some c => c | None => fresh_status end
  end.

(* ------------------------------------------------------------------ gcTargets *)
Definition load_of (o : opts) (s : sinfo) : Z := if max_head o =? 0 then si_proc s else si_head s.

(* does shard `other` justify deleting copy `tar` of h held by shard s ? (gcTargets). `front`: other comes before s
   in the list of in-sync shards - with equal loads the copy of the front shard is kept *)
Definition gc_justifies (o : opts) (front : bool) (s other : sinfo) (h : N) (tar : cstat) : bool :=
  match afind h (scr_of other) with
  | Some st =>
    (min_wait <=? c_times st)%N &&
    ((tstate_eqb (c_state tar) InTransfer && tstate_eqb (c_state st) Normal) ||
     (tstate_eqb (c_state tar) (c_state st) &&
      ((load_of o other <? load_of o s) || ((load_of o other =? load_of o s) && front))))
  | None => false
  end.

(* keep copy (h,tar) of shard number k ? *)
Definition gc_keep (o : opts) (active : list (N * N)) (p : plan) (k : nat) (h : N) (tar : cstat) : bool :=
  if negb (is_active active h) then false
  else if (c_times tar <? min_wait)%N then true
  else negb (existsb (fun j => negb (Nat.eqb j k) && si_ok (nth_si p j) &&
                               gc_justifies o (Nat.ltb j k) (nth_si p k) (nth_si p j) h tar) (indices p)).

Definition gc_shard (o : opts) (active : list (N * N)) (p : plan) (k : nat) : plan :=
  let s := nth_si p k in
  if si_ok s
  then upd k (fun s => set_scr s (filter (fun kv => gc_keep o active p k (fst kv) (snd kv)) (scr_of s))) p
  else p.
Definition gc (o : opts) (active : list (N * N)) (p : plan) : plan :=
  fold_left (gc_shard o active) (indices p) p.

(* ------------------------------------------------------------------ recoverOrphanTransfers *)
(* a copy marked in_transfer that no other in-sync shard holds goes back to normal *)
Definition orphan (p : plan) (k : nat) (h : N) : bool :=
  negb (existsb (fun j => negb (Nat.eqb j k) && si_ok (nth_si p j) && amem h (scr_of (nth_si p j))) (indices p)).
Definition recover_shard (p : plan) (k : nat) (s : sinfo) : sinfo :=
  if si_ok s
  then set_scr s (map (fun kv => if tstate_eqb (c_state (snd kv)) InTransfer && orphan p k (fst kv)
                                 then (fst kv, set_state (snd kv) Normal) else kv) (scr_of s))
  else s.
Fixpoint recover_from (p : plan) (k : nat) (l : list sinfo) : list sinfo :=
  match l with [] => [] | s :: r => recover_shard p k s :: recover_from p (S k) r end.
Definition recover (p : plan) : plan := recover_from p 0 p.

(* ------------------------------------------------------------------ transferTarget *)
Definition transfer (p : plan) (from to : nat) (h : N) : plan :=
  match afind h (scr_of (nth_si p from)) with
  | None => p
  | Some tar =>
    let p1 := upd to (fun s => set_scr (add_load s (c_series tar) (c_total tar)) (aset h tar (scr_of s))) p in
    upd from (fun s => set_scr s (aset h (set_state tar InTransfer) (scr_of s))) p1
  end.

Definition mk_event (kind : ev_kind) (p : plan) (from : option nat) (to : nat) (h : N) (c : cstat) : event :=
  {| ev_kind_of := kind; ev_hash := h; ev_from := from; ev_to := to; ev_series := c_series c; ev_total := c_total c;
     ev_head_before := si_head (nth_si p to); ev_proc_before := si_proc (nth_si p to); ev_times := c_times c |}.

(* ------------------------------------------------------------------ alleviateShards *)
Definition counted (c : cstat) : bool :=
  tstate_eqb (c_state c) Normal && health_eqb (c_health c) Good && (min_wait <=? c_times c)%N.
Definition total_head (s : sinfo) : Z := fold_left (fun a kv => if counted (snd kv) then a + c_series (snd kv) else a) (scr_of s) 0.
Definition total_proc (s : sinfo) : Z := fold_left (fun a kv => if counted (snd kv) then a + c_total (snd kv) else a) (scr_of s) 0.

(* rebalance.go:362-363 *)
Definition site_head_relief (o : opts) (os : sinfo) (tar : cstat) : bool :=
  (si_head os + c_series tar <? max_head o) && (si_proc os + c_total tar <? max_proc o).
(* rebalance.go:408-409 *)
Definition site_proc_relief (o : opts) (os : sinfo) (tar : cstat) : bool :=
  ((max_head o =? 0) || (si_head os + c_series tar <? max_head o)) && (si_proc os + c_total tar <? max_proc o).

Definition first_dest (site : sinfo -> bool) (p : plan) (k : nat) : option nat :=
  find (fun j => negb (Nat.eqb j k) && si_ok (nth_si p j) && site (nth_si p j)) (indices p).

Record relief_state := { rs_plan : plan; rs_total : Z; rs_events : list event; rs_abort : bool }.

(* one iteration of `for hash, tar := range s.scraping` in alleviateShardHeadSeries *)
Definition relief_head_step (o : opts) (k : nat) (exp : Z) (st : relief_state) (h : N) : relief_state :=
  if rs_abort st || (rs_total st <=? exp) then st
  else match afind h (scr_of (nth_si (rs_plan st) k)) with
  | None => st
  | Some tar =>
    if negb (counted tar) then st
    else if max_head o <? c_series tar
    then {| rs_plan := rs_plan st; rs_total := rs_total st; rs_events := rs_events st; rs_abort := true |}
    else match first_dest (fun os => site_head_relief o os tar) (rs_plan st) k with
    | None => st
    | Some j =>
      {| rs_plan := transfer (rs_plan st) k j h; rs_total := rs_total st - c_series tar;
         rs_events := rs_events st ++ [mk_event ReliefHead (rs_plan st) (Some k) j h tar];
         rs_abort := false |}
    end
  end.

Definition relief_proc_step (o : opts) (k : nat) (exp : Z) (st : relief_state) (h : N) : relief_state :=
  if rs_abort st || (rs_total st <=? exp) then st
  else match afind h (scr_of (nth_si (rs_plan st) k)) with
  | None => st
  | Some tar =>
    if (c_total tar =? 0) || negb (counted tar) then st
    else if max_proc o <? c_total tar
    then {| rs_plan := rs_plan st; rs_total := rs_total st; rs_events := rs_events st; rs_abort := true |}
    else match first_dest (fun os => site_proc_relief o os tar) (rs_plan st) k with
    | None => st
    | Some j =>
      {| rs_plan := transfer (rs_plan st) k j h; rs_total := rs_total st - c_total tar;
         rs_events := rs_events st ++ [mk_event ReliefProc (rs_plan st) (Some k) j h tar];
         rs_abort := false |}
    end
  end.

(* alleviateShardHeadSeries / alleviateShardProcessSeries: returns plan, needed space, events *)
Definition relief_shard (step : relief_state -> N -> relief_state) (total0 exp : Z)
           (p : plan) (k : nat) (s : sst) : (plan * Z * list event) * sst :=
  if total0 <=? exp then ((p, 0, []), s)
  else
    let (keys, s1) := order (akeys (scr_of (nth_si p k))) s in
    let st := fold_left step keys {| rs_plan := p; rs_total := total0; rs_events := []; rs_abort := false |} in
    let need := if rs_abort st then 0 else if exp <? rs_total st then rs_total st - exp else 0 in
    ((rs_plan st, need, rs_events st), s1).

Record pass_state := { ps_plan : plan; ps_need : Z; ps_events : list event; ps_sst : sst }.

Definition proc_pass_step (o : opts) (st : pass_state) (k : nat) : pass_state :=
  let s := nth_si (ps_plan st) k in
  if si_ok s && (series_with_rate (max_proc o) proc_trigger_rate <=? si_proc s)
  then
    let exp := series_with_rate (max_proc o) proc_expect_rate in
    let '((p', need, evs), s') := relief_shard (relief_proc_step o k exp) (total_proc s) exp (ps_plan st) k (ps_sst st) in
    {| ps_plan := p'; ps_need := ps_need st + need; ps_events := ps_events st ++ evs; ps_sst := s' |}
  else st.

Definition head_threshold (o : opts) (head : Z) : option Z :=
  match find (fun row => series_with_rate (max_head o) (fst row) <=? head) head_thresholds with
  | Some row => Some (series_with_rate (max_head o) (snd row))
  | None => None
  end.

Definition head_pass_step (o : opts) (st : pass_state) (k : nat) : pass_state :=
  let s := nth_si (ps_plan st) k in
  if si_ok s then
    match head_threshold o (si_head s) with
    | Some exp =>
      let '((p', need, evs), s') := relief_shard (relief_head_step o k exp) (total_head s) exp (ps_plan st) k (ps_sst st) in
      {| ps_plan := p'; ps_need := ps_need st + need; ps_events := ps_events st ++ evs; ps_sst := s' |}
    | None => st
    end
  else st.

(* returns plan, (head need, proc need), events *)
Definition alleviate (o : opts) (p : plan) (s : sst) : (plan * (Z * Z) * list event) * sst :=
  if disable_alleviate o then ((p, (0, 0), []), s)
  else
    let st1 := fold_left (proc_pass_step o) (indices p) {| ps_plan := p; ps_need := 0; ps_events := []; ps_sst := s |} in
    if max_head o =? 0 then ((ps_plan st1, (0, ps_need st1), ps_events st1), ps_sst st1)
    else
      let st2 := fold_left (head_pass_step o) (indices p)
                           {| ps_plan := ps_plan st1; ps_need := 0; ps_events := ps_events st1; ps_sst := ps_sst st1 |} in
      ((ps_plan st2, (ps_need st2, ps_need st1), ps_events st2), ps_sst st2).

(* ------------------------------------------------------------------ getFreeShard / assignNoScrapingTargets *)
(* rebalance.go:504-505 *)
Definition site_free_shard (o : opts) (s : sinfo) (series total : Z) : bool :=
  ((max_head o =? 0) || (si_head s + series <? max_head o)) && (si_proc s + total <? max_proc o).

(* candidates among the first `limit` shards *)
Definition free_candidates (o : opts) (p : plan) (limit : nat) (series total : Z) : list nat :=
  filter (fun j => si_ok (nth_si p j) && site_free_shard o (nth_si p j) series total) (seq 0 limit).

Definition get_free_shard (o : opts) (p : plan) (limit : nat) (series total : Z) (s : sst) : option nat * sst :=
  let cands := free_candidates o p limit series total in
  match cands with
  | [] => (None, s)
  | j0 :: _ =>
    if max_idle o =? 0
    then let (i, s') := choose (length cands) s in (Some (nth i cands j0), s')
    else (Some j0, s)
  end.

(* rebalance.go:492-495 *)
Definition is_too_big (o : opts) (c : cstat) : bool :=
  (negb (max_head o =? 0) && (max_head o <? c_series c)) || (max_proc o <? c_series c) || (max_proc o <? c_total c).

Record assign_state := { as_plan : plan; as_need : Z * Z; as_events : list event; as_sst : sst }.

Definition assign_step (o : opts) (scraped : N -> bool) (gstatus : N -> cstat) (st : assign_state) (h : N) : assign_state :=
  if scraped h then st
  else
    let status := gstatus h in
    if negb (health_eqb (c_health status) Good) then st
    else if is_too_big o status then st
    else
      let p := as_plan st in
      let (dest, s') := get_free_shard o p (length p) (c_series status) (c_total status) (as_sst st) in
      match dest with
      | Some j =>
        {| as_plan := upd j (fun s => set_scr (add_load s (c_series status) (c_total status)) (aset h status (scr_of s))) p;
           as_need := as_need st;
           as_events := as_events st ++ [mk_event First p None j h status];
           as_sst := s' |}
      | None =>
        {| as_plan := p; as_need := (fst (as_need st) + c_series status, snd (as_need st) + c_total status);
           as_events := as_events st; as_sst := s' |}
      end.

Definition assign (o : opts) (active : list (N * N)) (gstatus : N -> cstat) (p : plan) (s : sst)
  : (plan * (Z * Z) * list event) * sst :=
  let scraped := fun h => existsb (fun si => amem h (scr_of si)) p in
  let (keys, s1) := order (akeys active) s in
  let st := fold_left (assign_step o scraped gstatus) keys {| as_plan := p; as_need := (0, 0); as_events := []; as_sst := s1 |} in
  ((as_plan st, as_need st, as_events st), as_sst st).

(* ------------------------------------------------------------------ tryScaleUp *)
Definition try_scale_up (o : opts) (p : plan) (need : Z * Z) : Z :=
  let nok := Z.of_nat (length (filter si_ok p)) in
  let up0 := Z.quot (snd need) (max_proc o) + 1 in
  let up := if negb (max_head o =? 0) && (up0 <? Z.quot (fst need) (max_head o) + 1)
            then Z.quot (fst need) (max_head o) + 1 else up0 in
  Z.max (nok + up) (Z.of_nat (length p)).

(* ------------------------------------------------------------------ tryScaleDown *)
Definition removable (o : opts) (s : sinfo) : bool :=
  si_ok s && match scr_of s with [] => true | _ => false end &&
  match si_idle s with Some age => max_idle o <? age | None => false end.

(* first loop: returns the number of shards kept (= index of the stopping shard + 1) *)
Fixpoint tail_removable (o : opts) (rev_p : list sinfo) : nat :=
  match rev_p with
  | [] => 0
  | s :: t => if removable o s then tail_removable o t else length rev_p
  end.

(* shardCanBeIdle: first-fit simulation over the remaining room of the lower in-sync shards *)
Fixpoint first_fit (o : opts) (spaces : list (Z * Z)) (tar : cstat) : option (list (Z * Z)) :=
  match spaces with
  | [] => None
  | (hs, ps) :: t =>
    if ((max_head o =? 0) || (c_series tar <? hs)) && (c_total tar <? ps)
    then Some ((hs - c_series tar, ps - c_total tar) :: t)
    else match first_fit o t tar with Some t' => Some ((hs, ps) :: t') | None => None end
  end.

Fixpoint can_pack (o : opts) (spaces : list (Z * Z)) (tars : list cstat) : bool :=
  match tars with
  | [] => true
  | tar :: rest =>
    if negb (tstate_eqb (c_state tar) Normal) || (c_times tar <? min_wait)%N then false
    else match first_fit o spaces tar with
         | Some sp' => can_pack o sp' rest
         | None => false
         end
  end.

Definition can_be_idle (o : opts) (p : plan) (k : nat) (s : sst) : bool * sst :=
  let src := nth_si p k in
  if negb (si_ok src) then (false, s)
  else
    let spaces := map (fun si => (max_head o - si_head si, max_proc o - si_proc si)) (filter si_ok (firstn k p)) in
    let (vals, s1) := order (map snd (scr_of src)) s in
    (can_pack o spaces vals, s1).

Record idle_state := { is_plan : plan; is_events : list event; is_failed : bool; is_sst : sst }.

Definition become_idle_step (o : opts) (k : nat) (st : idle_state) (h : N) : idle_state :=
  if is_failed st then st
  else match afind h (scr_of (nth_si (is_plan st) k)) with
  | None => st
  | Some tar =>
    if negb (tstate_eqb (c_state tar) Normal) || (c_times tar <? min_wait)%N then st
    else
      let (dest, s') := get_free_shard o (is_plan st) k (c_series tar) (c_total tar) (is_sst st) in
      match dest with
      | None => {| is_plan := is_plan st; is_events := is_events st; is_failed := true; is_sst := s' |}
      | Some j =>
        {| is_plan := transfer (is_plan st) k j h;
           is_events := is_events st ++ [mk_event ScaleDown (is_plan st) (Some k) j h tar];
           is_failed := false; is_sst := s' |}
      end
  end.

Definition become_idle (o : opts) (p : plan) (k : nat) (s : sst) : (plan * list event * bool) * sst :=
  let (keys, s1) := order (akeys (scr_of (nth_si p k))) s in
  let st := fold_left (become_idle_step o k) keys {| is_plan := p; is_events := []; is_failed := false; is_sst := s1 |} in
  ((is_plan st, is_events st, negb (is_failed st)), is_sst st).

(* second loop: i runs from `i` down to 1 *)
Fixpoint scale_down_moves (o : opts) (i : nat) (p : plan) (evs : list event) (s : sst) : (plan * list event) * sst :=
  match i with
  | O => ((p, evs), s)
  | S i' =>
    let from := nth_si p i in
    match si_idle from with
    | Some _ => scale_down_moves o i' p evs s
    | None =>
      let (can, s1) := can_be_idle o p i s in
      if negb can then ((p, evs), s1)
      else
        let '((p', evs', ok), s2) := become_idle o p i s1 in
        if ok then scale_down_moves o i' p' (evs ++ evs') s2 else ((p', evs ++ evs'), s2)
    end
  end.

Definition try_scale_down (o : opts) (p : plan) (s : sst) : (Z * plan * list event) * sst :=
  let kept := tail_removable o (rev p) in       (* shards[kept-1] is where the first loop stopped *)
  let '((p', evs), s') := scale_down_moves o (pred kept) p [] s in
  ((Z.of_nat kept, p', evs), s').

(* ------------------------------------------------------------------ updateScrapingTargets / apply *)
Definition new_targets (active : list (N * N)) (s : sinfo) : list ptarget :=
  flat_map (fun kv => match afind (fst kv) active with
                      | Some job => [{| pt_hash := fst kv; pt_job := job; pt_state := c_state (snd kv); pt_series := c_series (snd kv) |}]
                      | None => []
                      end) (scr_of s).

(* shard.go needUpdate *)
Definition need_update (targets : list ptarget) (cache : amap cstat) : bool :=
  negb (Nat.eqb (length targets) (length cache)) || Nat.eqb (length targets) 0 ||
  existsb (fun t => match afind (pt_hash t) cache with
                    | Some c => negb (tstate_eqb (c_state c) (pt_state t))
                    | None => true
                    end) targets.

Definition apply_shard (active : list (N * N)) (sh : shard_in) (s : sinfo) : option (list ptarget) * list req :=
  if negb (si_ok s) then (None, [])
  else
    let ts := new_targets active s in
    if need_update ts (cache_of sh)
    then if sh_post_ok sh then (Some ts, [PostTargets; PostExtra]) else (Some ts, [PostTargets])
    else (None, [PostExtra]).

(* ------------------------------------------------------------------ the cycle *)
Definition clamp (o : opts) (scale : Z) : Z :=
  let s1 := if max_shard o <? scale then max_shard o else scale in
  if s1 <? min_shard o then min_shard o else s1.

(* the planning part of the cycle, with every intermediate plan kept (the theorems talk about them) *)
Record stages := {
  st_p0 : plan;            (* after getShardInfos *)
  st_p1 : plan;            (* after gcTargets and recoverOrphanTransfers *)
  st_p2 : plan;            (* after alleviateShards *)
  st_p3 : plan;            (* after assignNoScrapingTargets *)
  st_p4 : plan;            (* after tryScaleDown (= st_p3 otherwise) *)
  st_need : Z * Z;         (* needed space: head, process *)
  st_ev_a : list event; st_ev_b : list event; st_ev_c : list event;
  st_scale : Z;            (* before clamping *)
  st_s2 : sst; st_s3 : sst;
}.

Definition run_stages (o : opts) (i : input) (s0 : sst) : stages :=
  let p0 := map (fun sh => fst (get_info sh)) (i_shards i) in
  let gstatus := global_status (i_explore i) p0 in
  let p1 := recover (gc o (i_active i) p0) in
  let ra := alleviate o p1 s0 in
  let p2 := fst (fst (fst ra)) in
  let need_a := snd (fst (fst ra)) in
  let ev_a := snd (fst ra) in
  let rb := assign o (i_active i) gstatus p2 (snd ra) in
  let p3 := fst (fst (fst rb)) in
  let need_b := snd (fst (fst rb)) in
  let ev_b := snd (fst rb) in
  let s2 := snd rb in
  let need := (fst need_a + fst need_b, snd need_a + snd need_b) in
  let need_zero := (fst need =? 0) && (snd need =? 0) in
  let rc := if negb need_zero then ((try_scale_up o p3 need, p3, []), s2)
            else if negb (max_idle o =? 0) then try_scale_down o p3 s2
            else ((Z.of_nat (length p3), p3, []), s2) in
  {| st_p0 := p0; st_p1 := p1; st_p2 := p2; st_p3 := p3; st_p4 := snd (fst (fst rc));
     st_need := need; st_ev_a := ev_a; st_ev_b := ev_b; st_ev_c := snd (fst rc);
     st_scale := fst (fst (fst rc)); st_s2 := s2; st_s3 := snd rc |}.

Definition cycle_sst (o : opts) (i : input) (s0 : sst) : output * sst :=
  let logs0 := map (fun sh => snd (get_info sh)) (i_shards i) in
  let p0 := map (fun sh => fst (get_info sh)) (i_shards i) in
  let too_few := Z.of_nat (length p0) <? min_shard o in
  let early := if too_few then [min_shard o] else [] in
  if too_few && negb (i_scale1_ok i)
  then ({| o_logs := logs0; o_posts := map (fun _ => None) p0; o_scales := early; o_events := [];
           o_plan := p0; o_infos := p0; o_skipped := true; o_divzero := false |}, s0)
  else
    let S := run_stages o i s0 in
    let need_zero := (fst (st_need S) =? 0) && (snd (st_need S) =? 0) in
    if negb need_zero && (max_proc o =? 0)
    then ({| o_logs := logs0; o_posts := map (fun _ => None) p0; o_scales := early; o_events := st_ev_a S ++ st_ev_b S;
             o_plan := st_p3 S; o_infos := p0; o_skipped := false; o_divzero := true |}, st_s2 S)
    else
      let applied := map (fun pr => apply_shard (i_active i) (fst pr) (snd pr)) (combine (i_shards i) (st_p4 S)) in
      ({| o_logs := map (fun pr => fst pr ++ snd (snd pr)) (combine logs0 applied);
          o_posts := map fst applied;
          o_scales := early ++ [clamp o (st_scale S)];
          o_events := st_ev_a S ++ st_ev_b S ++ st_ev_c S;
          o_plan := st_p4 S; o_infos := p0; o_skipped := false; o_divzero := false |}, st_s3 S).

Definition cycle (o : opts) (i : input) (sch : list nat) : output := fst (cycle_sst o i (sst_of sch)).
Definition cycle_traced (o : opts) (i : input) (sch : list nat) : output * list nat :=
  let (out, s) := cycle_sst o i (sst_of sch) in (out, s_trace s).
