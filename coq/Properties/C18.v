(* Properties/C18.v — Kubernetes shards are ordered by ordinal; scaling deletes only removed volumes.
   Only statements, each closed by `exact <lemma>`, with Print Assumptions beneath. *)
From KV Require Import Base.Util Model.K8s Proofs.K8sProofs.
From Coq Require Import Permutation.
Local Open Scope string_scope.
Local Open Scope list_scope.
Local Open Scope Z_scope.

(* the replica count becomes exactly the requested value (when the StatefulSet has one) *)
Theorem C18_scale_exact : forall del set e c,
  spec_replicas (change_scale del set e c) =
  match spec_replicas c with Some _ => Some e | None => None end.
Proof. exact change_scale_replicas. Qed.
Print Assumptions C18_scale_exact.

(* nothing at all happens when the count is unchanged (or unset) *)
Theorem C18_scale_noop : forall del set e c,
  spec_replicas c = Some e \/ spec_replicas c = None -> change_scale del set e c = c.
Proof. exact change_scale_unchanged. Qed.
Print Assumptions C18_scale_noop.

(* a claim disappears iff deletion is enabled and it is <template>-<set>-<i> of a removed ordinal e <= i < old;
   no claim is ever created *)
Theorem C18_deleted_exactly : forall del set e c n,
  (In n (pvcs c) /\ ~ In n (pvcs (change_scale del set e c))) <->
  (In n (pvcs c) /\ del = true /\
   exists old t i, spec_replicas c = Some old /\ In t (templates c) /\ e <= i < old /\ n = pvc_name t set i).
Proof. exact change_scale_removed_iff. Qed.
Print Assumptions C18_deleted_exactly.

Theorem C18_nothing_created : forall del set e c n,
  In n (pvcs (change_scale del set e c)) -> In n (pvcs c).
Proof. exact change_scale_subset. Qed.
Print Assumptions C18_nothing_created.

(* never a claim belonging to a remaining shard: for EVERY template name t (not only the set's own),
   every remaining ordinal 0 <= i < e *)
Theorem C18_survivors_kept : forall del set e c t i,
  0 <= i < e -> In (pvc_name t set i) (pvcs c) -> In (pvc_name t set i) (pvcs (change_scale del set e c)).
Proof. exact change_scale_survivor. Qed.
Print Assumptions C18_survivors_kept.

(* a scale request whose StatefulSet update fails (conflict, API error) changes nothing - in particular it deletes
   no claim - and reports the failure exactly when a change had been asked for *)
Theorem C18_failed_update_deletes_nothing : forall del set e c,
  fst (change_scale_f true del set e c) = c /\
  (snd (change_scale_f true del set e c) = true <-> exists old, spec_replicas c = Some old /\ old <> e).
Proof. exact change_scale_failed. Qed.
Print Assumptions C18_failed_update_deletes_nothing.

(* the name scheme "%s-%s-%d" determines the ordinal *)
Theorem C18_names : forall t t' set set' i j,
  0 <= i -> 0 <= j -> pvc_name t set i = pvc_name t' set' j -> i = j.
Proof. exact pvc_name_ordinal_inj. Qed.
Print Assumptions C18_names.

(* shards are listed in ordinal order whatever order the pods are returned in, with address and readiness *)
Theorem C18_order : forall set port sorted listed,
  in_ordinal_order set sorted -> Permutation sorted listed ->
  shards set port listed = map (shard_of port) sorted.
Proof. exact shards_any_order. Qed.
Print Assumptions C18_order.

Theorem C18_shard_fields : forall port p,
  s_id (shard_of port p) = p_name p /\
  s_url (shard_of port p) = "http://" +++ p_ip p +++ ":" +++ decZ port /\
  (s_ready (shard_of port p) = true <-> p_ip p <> "").
Proof. exact shard_of_fields. Qed.
Print Assumptions C18_shard_fields.

(* a StatefulSet whose rolling update is in progress is not coordinated *)
Theorem C18_rolling : forall l name,
  In name (replicas_first_call l) ->
  exists s, In s l /\ st_name s = name /\ st_replicas s = st_updated s.
Proof. exact rolling_skipped. Qed.
Print Assumptions C18_rolling.

(* ... and over time: one manager, any number of calls, any time between them, whatever it remembers of sets that were
   not ready - the result of every call names only sets whose update is complete *)
Theorem C18_rolling_always : forall calls now st k names,
  nth_error (replicas_hist now st calls) k = Some names ->
  exists dt l, nth_error calls k = Some (dt, l) /\
    forall name, In name names -> exists s, In s l /\ st_name s = name /\ st_replicas s = st_updated s.
Proof. exact rolling_skipped_always. Qed.
Print Assumptions C18_rolling_always.

Theorem C18_first_call_is_history : forall l, replicas_hist 0 [] [(0, l)] = [replicas_first_call l].
Proof. exact first_call_is_history. Qed.
Print Assumptions C18_first_call_is_history.

(* non-vacuity: a set that is not ready is waited for two minutes and then coordinated; one that is updating never is *)
Example C18_rolling_always_example :
  let nr := {| st_name := "a"; st_replicas := 3; st_updated := 3; st_ready := 1 |} in
  let up := {| st_name := "b"; st_replicas := 3; st_updated := 1; st_ready := 3 |} in
  replicas_hist 0 [] [(0, [nr; up]); (119, [nr; up]); (1, [nr; up]); (100000, [nr; up])] = [[]; []; ["a"]; ["a"]].
Proof. vm_compute. reflexivity. Qed.

(* non-vacuity: a concrete scale-down 4 -> 2 with two templates deletes exactly four claims *)
Example C18_example :
  let c := {| spec_replicas := Some 4; templates := ["data"; "wal"];
              pvcs := ["data-p-0"; "data-p-1"; "data-p-2"; "data-p-3"; "wal-p-0"; "wal-p-3"; "data-q-3"] |} in
  pvcs (change_scale true "p" 2 c) = ["data-p-0"; "data-p-1"; "wal-p-0"; "data-q-3"] /\
  in_ordinal_order "p" [ {| p_name := "p-0"; p_ip := "1" |}; {| p_name := "p-1"; p_ip := "" |} ].
Proof.
  split; [vm_compute; reflexivity|].
  intros i p H. destruct i as [|[|i]]; simpl in H; try (injection H as <-; reflexivity).
  destruct i; discriminate.
Qed.

(* the wait for a set that is complete but not ready: remembered at the first sight, two minutes from then; a ready set is
   taken at once; a set that is being updated is skipped and forgotten *)
From KV Require Import Proofs.K8sWait.
Theorem C18_not_ready_is_waited_for : forall now st s,
  st_replicas s = st_updated s -> st_ready s <> st_replicas s ->
  let first := match rm_find (st_name s) st with None => now | Some t => t end in
  snd (replicas_one now st s) = negb (now - first <? wait_seconds) /\
  rm_find (st_name s) (fst (replicas_one now st s)) = Some first.
Proof. exact not_ready_is_waited_for. Qed.
Print Assumptions C18_not_ready_is_waited_for.

Theorem C18_updating_is_skipped_and_forgotten : forall now st s,
  st_replicas s <> st_updated s ->
  snd (replicas_one now st s) = false /\ fst (replicas_one now st s) = rm_del (st_name s) st.
Proof. exact updating_is_skipped_and_forgotten. Qed.
Print Assumptions C18_updating_is_skipped_and_forgotten.
