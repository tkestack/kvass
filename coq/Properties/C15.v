(* Properties/C15.v — A target's hash depends only on its final labels and URL, and is stable. *)
From KV Require Import Base.Util Model.Hash Proofs.HashProofs.
From Coq Require Import Permutation.
Local Open Scope list_scope.

(* target_hash is the bit-exact model of translate.go `targetHash` (xxhash64 of the name-sorted label bytes, printed
   with %016d, followed by the URL, through FNV-1a-64); it is a closed Gallina function, so "the same across discovery
   rounds, coordinator processes and restarts" is its being a function - the correspondence run recomputes every
   hash the real code produced, in the parent and in child processes. *)

(* label order, group order, target order: only the label SET and the URL matter *)
Theorem C15_function_of_content : forall ls ls' url,
  Permutation ls ls' -> NoDup (map fst ls) -> target_hash ls url = target_hash ls' url.
Proof. exact hash_function_of_content. Qed.
Print Assumptions C15_function_of_content.

(* how the group's and the target's own labels are merged: the target wins, name by name *)
Theorem C15_merge : forall name tl gl,
  lfind name (merge_labels tl gl) = match lfind name tl with Some v => Some v | None => lfind name gl end.
Proof. exact merge_target_wins. Qed.
Print Assumptions C15_merge.

(* every split of the same final labels between group and target gives the same hash *)
Theorem C15_split_irrelevant : forall tl gl tl' gl' url,
  Permutation (merge_labels tl gl) (merge_labels tl' gl') -> NoDup (map fst (merge_labels tl gl)) ->
  target_hash (merge_labels tl gl) url = target_hash (merge_labels tl' gl') url.
Proof. exact split_irrelevant. Qed.
Print Assumptions C15_split_irrelevant.

(* entries with equal labels and URL (hence equal hash) collapse into one target; nothing else is lost *)
Theorem C15_collapse : forall (A : Type) (hash : A -> N) l,
  NoDup (map hash (dedup_hash hash [] l)) /\
  (forall x, In x (dedup_hash hash [] l) -> In x l) /\
  (forall x, In x l -> In (hash x) (map hash (dedup_hash hash [] l))).
Proof. exact @collapse. Qed.
Print Assumptions C15_collapse.

(* targets that differ get different hashes - as far as a 64-bit hash can: the byte strings handed to the two hash
   functions determine the label set and the URL (no 0xff byte in label names/values: they are valid UTF-8; the URL
   does not start with a digit: it starts with its scheme), so two targets hash alike only if they ARE alike or
   xxhash64 / FNV-1a collide on exactly these two distinct inputs. Collision-freedom itself is not provable
   (pigeonhole); the correspondence run asserts distinct hashes on every single-edit pair it generates. *)
Theorem C15_distinct_or_collision : forall ls ls' url url',
  wf_labels (sort_labels ls) -> wf_labels (sort_labels ls') -> starts_nondigit url -> starts_nondigit url' ->
  target_hash ls url = target_hash ls' url' ->
  (sort_labels ls = sort_labels ls' /\ url = url') \/
  (labels_bytes (sort_labels ls) <> labels_bytes (sort_labels ls') /\
   xxh64 (labels_bytes (sort_labels ls)) = xxh64 (labels_bytes (sort_labels ls'))) \/
  (pad16 (xxh64 (labels_bytes (sort_labels ls))) ++ url <> pad16 (xxh64 (labels_bytes (sort_labels ls'))) ++ url' /\
   fnv1a (pad16 (xxh64 (labels_bytes (sort_labels ls))) ++ url) = fnv1a (pad16 (xxh64 (labels_bytes (sort_labels ls'))) ++ url')).
Proof. exact distinct_or_collision. Qed.
Print Assumptions C15_distinct_or_collision.

Theorem C15_labels_bytes_injective : forall ls ls', wf_labels ls -> wf_labels ls' -> labels_bytes ls = labels_bytes ls' -> ls = ls'.
Proof. exact labels_bytes_injective. Qed.
Print Assumptions C15_labels_bytes_injective.

(* non-vacuity: two orders of one label set, a group/target split of it, and a one-value edit *)
Example C15_example :
  let a := [(B "job", B "j"); (B "__address__", B "h:80"); (B "env", B "prod")] in
  let b := [(B "env", B "prod"); (B "job", B "j"); (B "__address__", B "h:80")] in
  let u := B "http://h:80/metrics" in
  target_hash a u = target_hash b u /\
  target_hash (merge_labels [(B "__address__", B "h:80"); (B "env", B "prod")] [(B "job", B "j"); (B "env", B "dev")]) u = target_hash a u /\
  target_hash [(B "job", B "j"); (B "__address__", B "h:80"); (B "env", B "prod2")] u <> target_hash a u /\
  NoDup (map fst a) /\ wf_labels (sort_labels a) /\ starts_nondigit u.
Proof.
  intros a b u.
  assert (Hnd : NoDup (map fst a)) by (vm_compute; repeat constructor; simpl; intuition discriminate).
  (* the label sets of the two equalities are permutations of a (C15_function_of_content);
     only the inequality needs the two 64-bit values *)
  split; [apply hash_function_of_content; [apply (Permutation_app_comm [_; _] [_]) | exact Hnd]|].
  split; [symmetry; apply hash_function_of_content; [vm_compute; apply Permutation_cons_append | exact Hnd]|].
  split; [rewrite !target_hash_eq, !fnv1a_mask_eq; vm_compute; discriminate|].
  split; [exact Hnd|].
  split; [vm_compute; repeat constructor; unfold no_sep; simpl; intuition discriminate | reflexivity].
Qed.
