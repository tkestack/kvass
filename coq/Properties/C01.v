(* Properties/C01.v — Coordination never orphans a target a healthy shard is scraping.
   Statements only; proofs are in Proofs/CoordC01.v (the closed-loop form in Proofs/WorldNoGap.v).  Vocabulary (insync, reported, holds_after, ...)
   is that of Model/CoordCheck.v, the same terms the run-time monitor evaluates on the implementation. *)
From KV Require Import Base.Util Base.AMap Model.Coordinator Model.CoordCheck Model.Sidecar Model.World Proofs.CoordC01 Proofs.WorldProofs Proofs.WorldNoGap.
Local Open Scope list_scope.
Local Open Scope Z_scope.

(* For every option setting with a non-zero process limit (cmd/kvass rejects 0), every number of shards,
   every combination of scripted replies, and every schedule of map iterations / random picks:
   the cycle does not crash, and a discovered target reported by an in-sync shard is still in the target
   list of an in-sync shard afterwards (whether or not the POSTs are sent, skipped or fail). *)
Theorem C01_no_orphan : forall o i sch h,
  NoDupReports i -> max_proc o <> 0 ->
  let ob := obs_of (cycle o i sch) in
  ob_panic ob = false /\
  (is_active (i_active i) h = true ->
   (exists k, insync i k = true /\ In h (akeys (reported i k))) ->
   exists k', insync i k' = true /\ holds_after i ob k' h = true).
Proof. exact c01_no_orphan. Qed.
Print Assumptions C01_no_orphan.

(* A target is taken away from an in-sync shard only when it is no longer discovered or when another
   in-sync shard also reports scraping it. *)
Theorem C01_taken_only_if : forall o i sch k h,
  NoDupReports i ->
  insync i k = true -> In h (akeys (reported i k)) ->
  holds_after i (obs_of (cycle o i sch)) k h = false ->
  is_active (i_active i) h = false \/
  exists k', k' <> k /\ insync i k' = true /\ In h (akeys (reported i k')).
Proof. exact c01_taken_only_if. Qed.
Print Assumptions C01_taken_only_if.

(* non-vacuity: two in-sync shards both report target 7 (duplicate), shard 1 is more loaded;
   its copy is collected, shard 0 keeps it; the hypotheses of both theorems are met *)
Definition ex_stat (t : N) : cstat := {| c_state := Normal; c_health := Good; c_series := 10; c_total := 10; c_times := t |}.
Definition ex_shard (load : Z) : shard_in :=
  {| sh_ready := true; sh_status := Some [(7%N, ex_stat 5)];
     sh_rt1 := Some {| r_head := load; r_proc := load; r_hash_ok := true; r_idle := None |};
     sh_push_ok := true; sh_rt2 := None; sh_post_ok := true |}.
Definition ex_input : input :=
  {| i_shards := [ex_shard 10; ex_shard 20]; i_active := [(7%N, 0%N)]; i_explore := []; i_scale1_ok := true |}.
Definition ex_opts : opts :=
  {| max_head := 0; max_proc := 100; max_shard := 5; min_shard := 1; max_idle := 0; disable_alleviate := false |}.
Example C01_example :
  let ob := obs_of (cycle ex_opts ex_input []) in
  insync ex_input 0 = true /\ insync ex_input 1 = true /\
  holds_after ex_input ob 0 7%N = true /\ holds_after ex_input ob 1 7%N = false /\
  ob_posts ob = [None; Some []].
Proof. vm_compute. repeat split. Qed.

(* the same in the closed loop (World model: real sidecar semantics of a target update, StatefulSet following the scale
   requests): one cycle with ANY faults under ANY schedule never leaves a discovered target that some sidecar holds
   without a holder - C01's keeper, plus C08 (a shard not in sync is sent nothing), C07 (it is not scaled away) and C10
   (an update makes the sidecar hold the body). Tied to the code by the `loop` engine (C03, C05, C06). *)
Theorem C01_closed_loop : forall o tru w f sch h,
  wwf w -> Z.of_nat (length (w_shards w)) <= max_shard o ->
  In h (w_active w) -> held w h -> held (model_cycle o tru w f sch) h.
Proof. exact cycle_no_gap. Qed.
Print Assumptions C01_closed_loop.
