(* Properties/C04.v — Targets are only placed where they fit under the series limits.
   Statements only; proofs in Proofs/CoordC04.v, over the runs of placements of Proofs/CoordEvents.v. *)
From KV Require Import Base.Util Base.AMap Model.Coordinator Model.CoordCheck Proofs.CoordEvents Proofs.CoordCycle Proofs.CoordC04.
Local Open Scope list_scope.
Local Open Scope Z_scope.

(* Every placement of a cycle — first assignment, relief transfer (head or process pass), scale-down
   transfer — is recorded as an event carrying the destination's running load at that moment
   (ev_head_before / ev_proc_before: reported load plus everything placed on it earlier in the cycle).
   For every option setting, input and schedule, each event satisfies both limits strictly. *)
Theorem C04_fits : forall o i sch e,
  In e (o_events (cycle o i sch)) ->
  (max_head o = 0 \/ ev_head_before e + ev_series e < max_head o) /\
  ev_proc_before e + ev_total e < max_proc o.
Proof. exact c04_fits. Qed.
Print Assumptions C04_fits.

(* The running load an event records is exactly what the property names: the load that shard REPORTED in this cycle
   plus everything placed on it earlier in the cycle (by relief, assignment or scale-down moves alike). *)
Theorem C04_running_load : forall o i sch pre e post,
  o_events (cycle o i sch) = pre ++ e :: post ->
  ev_head_before e = si_head (info_at i (ev_to e)) + sum_to ev_series (ev_to e) pre /\
  ev_proc_before e = si_proc (info_at i (ev_to e)) + sum_to ev_total (ev_to e) pre.
Proof. exact c04_running_load. Qed.
Print Assumptions C04_running_load.

(* Hence: the reported load of a shard plus EVERYTHING placed on it during the cycle stays strictly below the limits. *)
Theorem C04_reported_plus_placed_fits : forall o i sch k,
  (exists e, In e (o_events (cycle o i sch)) /\ ev_to e = k) ->
  (max_head o = 0 \/ si_head (info_at i k) + sum_to ev_series k (o_events (cycle o i sch)) < max_head o) /\
  si_proc (info_at i k) + sum_to ev_total k (o_events (cycle o i sch)) < max_proc o.
Proof. exact c04_total_fits. Qed.
Print Assumptions C04_reported_plus_placed_fits.

(* A target that alone exceeds a limit is skipped by assignment altogether: nothing placed, no needed space counted
   (so it cannot cause a scale-up). *)
Theorem C04_oversized_adds_no_need : forall o scraped g st h,
  is_too_big o (g h) = true -> assign_step o scraped g st h = st.
Proof. exact assign_step_too_big. Qed.
Print Assumptions C04_oversized_adds_no_need.

(* A target that alone exceeds a limit is never assigned. *)
Theorem C04_oversized_never_assigned : forall o i sch e,
  In e (o_events (cycle o i sch)) -> ev_kind_of e = First ->
  (max_head o = 0 \/ ev_series e <= max_head o) /\ ev_total e <= max_proc o.
Proof. exact c04_first_sized. Qed.
Print Assumptions C04_oversized_never_assigned.

(* non-vacuity: a cycle with a relief transfer and a first assignment; and an oversized target that is
   neither assigned nor counted as needed space (the scale request stays at the current count) *)
Definition st (s t : Z) : cstat := {| c_state := Normal; c_health := Good; c_series := s; c_total := t; c_times := 5 |}.
Definition sh (tars : amap cstat) (head proc : Z) : shard_in :=
  {| sh_ready := true; sh_status := Some tars;
     sh_rt1 := Some {| r_head := head; r_proc := proc; r_hash_ok := true; r_idle := None |};
     sh_push_ok := true; sh_rt2 := None; sh_post_ok := true |}.
Definition ex_o : opts := {| max_head := 100; max_proc := 1000; max_shard := 9; min_shard := 1; max_idle := 0; disable_alleviate := false |}.
Definition ex_i : input :=
  {| i_shards := [sh [(1%N, st 60 60); (2%N, st 60 60)] 120 120; sh [] 0 0];
     i_active := [(1%N, 0%N); (2%N, 0%N); (3%N, 0%N); (4%N, 0%N)];
     i_explore := [(3%N, st 10 10); (4%N, st 5 2000)]; i_scale1_ok := true |}.
Example C04_example :
  map ev_kind_of (o_events (cycle ex_o ex_i [])) = [ReliefHead; First] /\
  o_scales (cycle ex_o ex_i []) = [2].
Proof. vm_compute. split; reflexivity. Qed.
