(* Properties/C03.v — Every eligible target ends up scraped by exactly one shard. *)
From KV Require Import Base.Util Base.AMap Base.Sched Gen.Consts Model.Coordinator Model.CoordCheck Model.Sidecar Model.World
                       Proofs.CoordBasics Proofs.CoordC01 Proofs.SidecarProofs Proofs.WorldProofs Proofs.CoordStable Proofs.WorldNoGap Proofs.CoordHandover Proofs.CoordRipe Proofs.CoordLive Proofs.WorldConverge.
Local Open Scope list_scope.
Local Open Scope Z_scope.

(* STATUS.  The statement - from every well-formed world, under a fair fault-free schedule, a converged world is reached
   within a bound and further cycles change nothing - is a liveness property of the composition of the cycle, the sidecars,
   the scrapes and the StatefulSet (Model/World.v).
   PROVED AS ONE THEOREM in the regime without relief and without consolidation (alleviation disabled, idle time-out 0,
   0 < max-process, min-shard <= max-shard): C03_converges_in_regime - from EVERY well-formed world (duplicates, pending
   transfers with or without partner, undiscovered leftovers, any counters), under EVERY iteration order in every cycle,
   after max(2, max-shard - shards + 1) calm rounds (fault-free cycle, three scrapes of everything, a tick) the world is
   clean - every held target is discovered, in normal state, on exactly one shard - and every eligible discovered target
   is held, or the replica has reached max-shard ("enough allowed shards" of the statement is exactly this alternative);
   C03_converged_stays - a clean world in which every discovered target is held or cannot be placed keeps its placement and
   its number of shards in every further round.  Steps: C03_clean_from_the_second_round, C03_placed_or_at_cap,
   C03_cycle_places_or_grows, C03_clean_held_world_is_settled; sizes stay non-negative (C03_sizes_stay_counts).
   OUTSIDE that regime (relief on, idle time-out on) the bound depends on the sizes of the workload (relief keeps starting
   moves while a shard is above its threshold, consolidation while one is idle); there the steps below are proved for every
   input and every iteration order, and their composition is validated in lock step against the real closed loop (engine
   `loop`), whose end states are checked for convergence and stability:
     (1) nothing is ever lost on the way: a discovered target that some sidecar holds is held after every step of every
         history, with or without faults (C05_no_gap_history / C06_no_target_lost_by_faults), and every sidecar stays well
         formed (C06_invariant_kept_by_faulty_cycle);
     (2) a round of three scrapes brings every counter to at least three (C03_scrape_round_counts); counters are only reset
         when a move begins (C10_kept_target);
     (3) the cleaning step: with all counters at three, one cycle's garbage collection and recovery pass leave every held
         target on exactly one in-sync shard in normal state - duplicates on any number of shards, pending transfers with
         or without partner (C03_one_normal_copy_after_cleaning, C05_handover_completes and the C06 theorems);
     (4) an eligible target that is held nowhere is placed, or the replica grows (C03_place_or_grow, below); with no relief to
         do, the plan after cleaning and assignment is clean (C03_ripe_cycle_gives_clean_plan), and the sidecars follow the
         plan exactly (C03_world_follows_plan, C03_ripe_world_becomes_clean);
     (5) a settled placement is a fixpoint of the cycle and of the closed loop (C03_settled_is_fixpoint,
         C03_settled_world_unchanged). *)

(* "Whenever all shards are in sync and an eligible unscraped target cannot be placed, the requested shard count
   exceeds the current one": one cycle of the model, any schedule *)
Theorem C03_place_or_grow : forall o i s0 h,
  let S := run_stages o i s0 in
  0 < max_proc o -> 0 <= max_head o ->
  sane (global_status (i_explore i) (st_p0 S)) ->
  In h (akeys (i_active i)) ->
  existsb (fun si => amem h (scr_of si)) (st_p2 S) = false ->
  c_health (global_status (i_explore i) (st_p0 S) h) = Good ->
  is_too_big o (global_status (i_explore i) (st_p0 S) h) = false ->
  0 < c_series (global_status (i_explore i) (st_p0 S) h) \/ 0 < c_total (global_status (i_explore i) (st_p0 S) h) ->
  Forall (fun s => si_ok s = true) (st_p3 S) ->
  Z.of_nat (length (st_p3 S)) < max_shard o ->
  first_event_for h (st_ev_b S) \/ Z.of_nat (length (st_p3 S)) + 1 <= clamp o (st_scale S).
Proof. exact place_or_grow. Qed.
Print Assumptions C03_place_or_grow.

(* its parts *)
Theorem C03_placed_or_counted : forall o active g p s h,
  sane g -> In h (akeys active) -> existsb (fun si => amem h (scr_of si)) p = false ->
  c_health (g h) = Good -> is_too_big o (g h) = false ->
  let r := assign o active g p s in
  first_event_for h (snd (fst r)) \/
  (c_series (g h) <= fst (snd (fst (fst r))) /\ c_total (g h) <= snd (snd (fst (fst r)))).
Proof. exact assign_places_or_needs. Qed.
Print Assumptions C03_placed_or_counted.

Theorem C03_needed_space_grows_the_replica : forall o p need,
  0 < max_proc o -> 0 <= max_head o -> 0 <= fst need -> 0 <= snd need ->
  Forall (fun s => si_ok s = true) p -> Z.of_nat (length p) + 1 <= try_scale_up o p need.
Proof. exact scale_up_grows. Qed.
Print Assumptions C03_needed_space_grows_the_replica.

Theorem C03_relief_need_nonnegative : forall o p s,
  0 <= fst (snd (fst (fst (alleviate o p s)))) /\ 0 <= snd (snd (fst (fst (alleviate o p s)))).
Proof. exact alleviate_need_nonneg. Qed.
Print Assumptions C03_relief_need_nonnegative.

(* no transfer stays pending for ever: an in_transfer copy that no other in-sync shard holds is normal again after
   the cycle's recovery pass, and nothing is in_transfer afterwards without such a partner *)
Theorem C03_orphan_transfer_recovered : forall p k h c,
  (k < length p)%nat -> si_ok (nth_si p k) = true -> NoDup (akeys (scr_of (nth_si p k))) ->
  afind h (scr_of (nth_si p k)) = Some c -> c_state c = InTransfer -> orphan p k h = true ->
  afind h (scr_of (nth_si (recover p) k)) = Some (set_state c Normal).
Proof. exact orphan_recovered. Qed.
Print Assumptions C03_orphan_transfer_recovered.

Theorem C03_in_transfer_has_partner : forall p k h c,
  afind h (scr_of (nth_si (recover p) k)) = Some c -> c_state c = InTransfer -> si_ok (nth_si p k) = true ->
  orphan p k h = false.
Proof. exact no_orphan_left. Qed.
Print Assumptions C03_in_transfer_has_partner.

(* no duplicate stays for ever: with equal loads the copy on the later shard is justified to go, the front one is not *)
Theorem C03_tie_broken_by_position : forall o s other h tar st,
  afind h (scr_of other) = Some st -> (min_wait <= c_times st)%N -> c_state tar = c_state st ->
  load_of o other = load_of o s ->
  gc_justifies o true s other h tar = true /\
  (c_state tar = c_state st -> gc_justifies o false s other h tar = false \/ c_state tar = InTransfer /\ c_state st = Normal).
Proof. exact tie_broken_by_position. Qed.
Print Assumptions C03_tie_broken_by_position.

(* computed: a world with an in_transfer copy without partner and an equally loaded duplicate (the two states the
   original code never left) converges under the model in three fault-free rounds, and a fourth changes nothing *)
Definition ex_opts : opts := {| max_head := 0; max_proc := 100; max_shard := 4; min_shard := 1; max_idle := 600; disable_alleviate := false |}.
Definition ex_truth : amap truth :=
  [(10%N, {| tr_job := 0; tr_series := 20; tr_total := 20; tr_healthy := true |});
   (11%N, {| tr_job := 0; tr_series := 30; tr_total := 40; tr_healthy := true |});
   (12%N, {| tr_job := 1; tr_series := 40; tr_total := 40; tr_healthy := true |})].
Definition ex_c (st : tstate) (s t : Z) : cstat := {| c_state := st; c_health := Good; c_series := s; c_total := t; c_times := 5 |}.
Definition ex_obs : lobs :=
  {| l_shards := [ {| lo_status := [(10%N, ex_c InTransfer 20 20); (12%N, ex_c Normal 40 40)]; lo_head := 60; lo_proc := 60; lo_idle := None; lo_hash_ok := true |};
                   {| lo_status := [(11%N, ex_c Normal 30 40); (10%N, ex_c Normal 20 20)]; lo_head := 50; lo_proc := 60; lo_idle := None; lo_hash_ok := true |};
                   {| lo_status := [(11%N, ex_c Normal 30 40)]; lo_head := 30; lo_proc := 40; lo_idle := None; lo_hash_ok := true |} ];
     l_posts := []; l_scales := []; l_panic := false |}.
Example C03_example_converges :
  let act := [10%N; 11%N; 12%N] in
  let w0 := world_of_obs ex_truth act ex_obs in
  let w5 := model_run ex_opts ex_truth w0 (calm_round ++ calm_round ++ calm_round ++ calm_round ++ calm_round) in
  let w6 := model_run ex_opts ex_truth w5 calm_round in
  converged ex_opts ex_truth act (obs_of_world w0) = false /\
  converged ex_opts ex_truth act (obs_of_world w5) = true /\
  placement (obs_of_world w5) = [[(11%N, Normal); (12%N, Normal)]; [(10%N, Normal)]] /\
  placement_eqb (obs_of_world w5) (obs_of_world w6) = true.
Proof. vm_compute. repeat split. Qed.

(* ---- "every target ... is scraped by exactly one shard in normal state, no transfer is pending" ----
   the cleaning step of one cycle: whatever the in-sync shards report of a discovered target - duplicates on any number of
   shards, pending transfers with or without partner -, once every copy has been scraped three times the plan after
   this cycle's garbage collection and recovery pass has it on exactly one in-sync shard, in normal state; for every
   order in which the shards are visited (later stages of the cycle only add: C04, C05) *)
Theorem C03_one_normal_copy_after_cleaning : forall o i s h,
  NoDupReports i -> is_active (i_active i) h = true ->
  (exists k, insync i k = true /\ In h (akeys (reported i k))) ->
  (forall k c, insync i k = true -> afind h (reported i k) = Some c -> (3 <= c_times c)%N) ->
  let p1 := st_p1 (run_stages o i s) in
  exists w, insync i w = true /\
    (exists c', afind h (scr_of (nth_si p1 w)) = Some c' /\ c_state c' = Normal) /\
    forall j, j <> w -> insync i j = true -> afind h (scr_of (nth_si p1 j)) = None.
Proof. exact single_normal_after_gc_and_recovery. Qed.
Print Assumptions C03_one_normal_copy_after_cleaning.

(* ... for the whole planning part of the cycle: every shard in sync, every reported copy scraped three times, no relief to
   do on the cleaned plan - then the plan after garbage collection, recovery and assignment is CLEAN: on every shard every
   entry is a discovered target in normal state, and no target is on two shards (what assignment adds is only what nobody
   holds, once).  Together with C03_place_or_grow (what is not placed makes the replica grow) and C03_settled_is_fixpoint
   this is the step "ripe report -> converged placement" of the argument, for every schedule *)
Theorem C03_ripe_cycle_gives_clean_plan : forall o i s,
  (forall k, (k < length (i_shards i))%nat -> insync i k = true) ->
  NoDupReports i -> NoDup (akeys (i_active i)) ->
  (forall k h c, afind h (reported i k) = Some c -> (3 <= c_times c)%N) ->
  (forall h c, afind h (i_explore i) = Some c -> c_state c = Normal) ->
  calm o (st_p1 (run_stages o i s)) ->
  clean (i_active i) (st_p3 (run_stages o i s)).
Proof. intros o i s _. apply ripe_cycle_gives_clean_plan. Qed.
Print Assumptions C03_ripe_cycle_gives_clean_plan.

(* ... in the closed loop (World model): after a fault-free cycle that was not skipped every sidecar holds exactly the discovered
   targets the final plan has for its shard - same targets, same states - whether or not an update was sent (needUpdate) *)
Theorem C03_world_follows_plan : forall o tru w sch k h st,
  wwf w -> (k < length (w_shards w))%nat ->
  let i := cycle_input tru w no_faults in
  let out := cycle o i sch in
  o_skipped out = false -> o_divzero out = false ->
  let s' := after_cycle_shard tru w no_faults k (nth k (w_shards w) dws) (nth k (o_posts out) None) in
  (exists e, afind h (sc_status (ws_sc s')) = Some e /\ ss_state e = st) <->
  (exists c, afind h (scr_of (nth_si (o_plan out) k)) = Some c /\ c_state c = st /\ is_active (i_active i) h = true).
Proof. exact world_follows_plan. Qed.
Print Assumptions C03_world_follows_plan.

(* ... hence: a ripe world (every counter at three; idle time-out off; no relief to do) is a clean world after ONE
   fault-free cycle, for every schedule: every target a sidecar holds is discovered, in normal state, and on no other
   shard.  With C03_place_or_grow (what is not placed makes the replica grow) and C03_settled_world_unchanged (a settled
   world stays) this is "reaches ... a state in which every ... target ... is scraped by exactly one shard in normal state,
   no transfer is pending" for one round after the counters are ripe *)
Theorem C03_ripe_world_becomes_clean : forall o tru w sch,
  wwf w -> max_idle o = 0 -> NoDup (w_active w) ->
  (forall k h e, (k < length (w_shards w))%nat -> afind h (sc_status (ws_sc (nth k (w_shards w) dws))) = Some e -> (3 <= ss_times e)%N) ->
  let i := cycle_input tru w no_faults in
  let out := cycle o i sch in
  calm o (st_p1 (run_stages o i (sst_of sch))) -> o_skipped out = false -> o_divzero out = false ->
  let status' := fun k => sc_status (ws_sc (after_cycle_shard tru w no_faults k (nth k (w_shards w) dws) (nth k (o_posts out) None))) in
  forall k h e, (k < length (w_shards w))%nat -> afind h (status' k) = Some e ->
    ss_state e = Normal /\ In h (w_active w) /\
    forall j, j <> k -> (j < length (w_shards w))%nat -> afind h (status' j) = None.
Proof. exact ripe_world_becomes_clean. Qed.
Print Assumptions C03_ripe_world_becomes_clean.

(* ... and a round of scrapes is what makes every copy eligible for that step: n scrapes of everything a sidecar is
   assigned add n to every counter (failed scrapes count as well) and change no state *)
Theorem C03_scrape_round_counts : forall tru n s h e, wf (ws_sc s) -> afind h (sc_status (ws_sc s)) = Some e ->
  exists e', afind h (sc_status (ws_sc (scrape_shard tru n s))) = Some e' /\
             ss_times e' = (ss_times e + N.of_nat n)%N /\ ss_state e' = ss_state e.
Proof. exact scrape_round_counts. Qed.
Print Assumptions C03_scrape_round_counts.

(* ---- "further cycles then change nothing" ----
   settled: every shard in sync; every reported copy is of a discovered target, in normal state, and no target is on
   two shards; no shard is above a relief threshold; every discovered target is held by some shard or cannot be
   assigned (not probed healthy, or larger than a shard); idle time-out off; the shard count within [min, max].
   Then, for every schedule: no placement event, the only scale request is the current count, the final plan is the
   reported one, and whatever target update is still sent repeats the reported assignment. *)
Theorem C03_settled_is_fixpoint : forall o i sch, settled o i ->
  let out := cycle o i sch in
  o_events out = [] /\ o_scales out = [Z.of_nat (length (i_shards i))] /\
  o_plan out = o_infos out /\ o_skipped out = false /\ o_divzero out = false.
Proof. exact settled_is_fixpoint. Qed.
Print Assumptions C03_settled_is_fixpoint.

Theorem C03_settled_updates_repeat_the_assignment : forall o i sch k, settled o i ->
  let ob := obs_of (cycle o i sch) in
  forall x, In x (intended i ob k) <-> In x (map (fun kv => (fst kv, c_state (snd kv))) (reported i k)).
Proof. exact settled_posts_repeat. Qed.
Print Assumptions C03_settled_updates_repeat_the_assignment.

(* ... and in the closed loop (World model: real sidecar semantics of a target update, StatefulSet following the scale
   request): a fault-free cycle on a settled world leaves the number of shards and every sidecar's status map
   (targets, states, counters, statistics) exactly as they were, whatever updates are still sent *)
Theorem C03_settled_world_unchanged : forall o tru w sch,
  wwf w -> settled o (cycle_input tru w no_faults) ->
  let w' := model_cycle o tru w no_faults sch in
  length (w_shards w') = length (w_shards w) /\
  forall k h, (k < length (w_shards w))%nat ->
    afind h (sc_status (ws_sc (nth k (w_shards w') dws))) = afind h (sc_status (ws_sc (nth k (w_shards w) dws))).
Proof. exact settled_world_unchanged. Qed.
Print Assumptions C03_settled_world_unchanged.

(* non-vacuity: two in-sync shards, one target each, one discovered target that is too large for a shard *)
Definition sx_stat (s t : Z) : cstat := {| c_state := Normal; c_health := Good; c_series := s; c_total := t; c_times := 7 |}.
Definition sx_shard (h : N) : shard_in :=
  {| sh_ready := true; sh_status := Some [(h, sx_stat 10 10)];
     sh_rt1 := Some {| r_head := 10; r_proc := 10; r_hash_ok := true; r_idle := None |};
     sh_push_ok := true; sh_rt2 := None; sh_post_ok := true |}.
Definition sx_o : opts := {| max_head := 0; max_proc := 100; max_shard := 4; min_shard := 1; max_idle := 0; disable_alleviate := false |}.
Definition sx_i : input :=
  {| i_shards := [sx_shard 1; sx_shard 2]; i_active := [(1%N, 0%N); (2%N, 0%N); (3%N, 0%N)];
     i_explore := [(3%N, sx_stat 500 500)]; i_scale1_ok := true |}.
Example C03_settled_example : settled sx_o sx_i.
Proof.
  constructor.
  - constructor.
    + intros [|[|k]] Hk; cbn in Hk; try lia; split; reflexivity.
    + intros k kv Hin. destruct k as [|[|k]];
        [vm_compute in Hin; destruct Hin as [<-|[]]; split; reflexivity
        |vm_compute in Hin; destruct Hin as [<-|[]]; split; reflexivity
        |rewrite nth_si_out in Hin by (cbn; lia); destruct Hin].
    + intros k j h Hne Hin. destruct k as [|[|k]].
      * vm_compute in Hin. destruct Hin as [<-|[]]. destruct j as [|[|j]]; [congruence|reflexivity|].
        rewrite nth_si_out by (cbn; lia). reflexivity.
      * vm_compute in Hin. destruct Hin as [<-|[]]. destruct j as [|[|j]]; [reflexivity|congruence|].
        rewrite nth_si_out by (cbn; lia). reflexivity.
      * rewrite nth_si_out in Hin by (cbn; lia). destruct Hin.
  - right. intros [|[|k]] Hk; cbn in Hk; try lia; split; [reflexivity|now left|reflexivity|now left].
  - intros h Hin. vm_compute in Hin. destruct Hin as [<-|[<-|[<-|[]]]]; [left; reflexivity|left; reflexivity|right; right; reflexivity].
  - reflexivity.
  - cbn. lia.
Qed.

(* non-vacuity of C03_ripe_cycle_gives_clean_plan: target 7 duplicated (shards 0 and 1), target 8 in a hand-over that is
   complete (shard 0 in transfer, shard 1 normal), target 9 in transfer without partner (shard 2), target 10 held nowhere;
   every copy scraped at least three times.  All hypotheses hold; afterwards: 7 on shard 0, 8 on shard 1, 9 normal on
   shard 2, 10 placed once *)
Definition rx_stat (st : tstate) (t : N) : cstat := {| c_state := st; c_health := Good; c_series := 10; c_total := 10; c_times := t |}.
Definition rx_shard (tars : amap cstat) : shard_in :=
  {| sh_ready := true; sh_status := Some tars;
     sh_rt1 := Some {| r_head := 20; r_proc := 20; r_hash_ok := true; r_idle := None |};
     sh_push_ok := true; sh_rt2 := None; sh_post_ok := true |}.
Definition rx_o : opts := {| max_head := 0; max_proc := 100; max_shard := 4; min_shard := 1; max_idle := 0; disable_alleviate := false |}.
Definition rx_i : input :=
  {| i_shards := [rx_shard [(7%N, rx_stat Normal 5); (8%N, rx_stat InTransfer 4)];
                  rx_shard [(7%N, rx_stat Normal 3); (8%N, rx_stat Normal 3)];
                  rx_shard [(9%N, rx_stat InTransfer 3)]];
     i_active := [(7%N, 0%N); (8%N, 0%N); (9%N, 0%N); (10%N, 0%N)];
     i_explore := [(10%N, rx_stat Normal 0)]; i_scale1_ok := true |}.
Example C03_ripe_example :
  (forall k, (k < length (i_shards rx_i))%nat -> insync rx_i k = true) /\
  (forall k h c, afind h (reported rx_i k) = Some c -> (3 <= c_times c)%N) /\
  calm rx_o (st_p1 (run_stages rx_o rx_i (sst_of []))) /\
  map (fun s => map (fun kv => (fst kv, c_state (snd kv))) (scr_of s)) (st_p3 (run_stages rx_o rx_i (sst_of []))) =
  [[(7%N, Normal); (10%N, Normal)]; [(8%N, Normal)]; [(9%N, Normal)]].
Proof.
  split; [intros [|[|[|k]]] Hk; cbn in Hk; try lia; reflexivity|].
  split.
  - intros k h c Hf. destruct (Nat.lt_ge_cases k 3) as [Hk|Hk].
    + destruct k as [|[|[|k]]]; [| | |lia]; vm_compute in Hf;
        repeat match type of Hf with (if ?b then _ else _) = _ => destruct b end;
        try discriminate; injection Hf as <-; cbn; lia.
    + unfold reported, shard_at in Hf. rewrite nth_overflow in Hf by (cbn; lia). cbn in Hf. discriminate.
  - split; [|vm_compute; reflexivity].
    right. intros [|[|[|k]]] Hk; vm_compute in Hk; try lia; (split; [vm_compute; reflexivity|now left]).
Qed.

(* ================================================================== bounded convergence, as one theorem, in the regime
   without relief and consolidation.  calm_round_with o tru w sch = fault-free cycle under schedule sch, every shard scrapes
   every target it holds three times, 400 s pass.  winv: sidecars well formed and their store in step, at most max-shard
   shards; wpos / tpos: sizes are counts (non-negative); eligible: the probe succeeds, has samples, fits a shard. *)
Theorem C03_clean_from_the_second_round : forall o tru w schs,
  regime o -> winv o w -> NoDup (w_active w) -> (2 <= length schs)%nat ->
  wclean (fold_left (calm_round_with o tru) schs w).
Proof. exact clean_from_the_second_round. Qed.
Print Assumptions C03_clean_from_the_second_round.

Theorem C03_cycle_places_or_grows : forall o tru w sch h,
  regime o -> 0 <= max_head o -> winv o w -> tpos tru -> wpos w ->
  In h (w_active w) -> eligible o tru h ->
  (forall k, afind h (status_at w k) = None) ->
  Z.of_nat (length (w_shards w)) < max_shard o ->
  held (model_cycle o tru w no_faults sch) h \/
  (length (w_shards w) + 1 <= length (w_shards (model_cycle o tru w no_faults sch)))%nat.
Proof. exact cycle_places_or_grows. Qed.
Print Assumptions C03_cycle_places_or_grows.

Theorem C03_sizes_stay_counts : forall o tru w sch,
  regime o -> winv o w -> tpos tru -> wpos w -> wpos (calm_round_with o tru w sch).
Proof. exact round_pos. Qed.
Print Assumptions C03_sizes_stay_counts.

Theorem C03_placed_or_at_cap : forall o tru h, regime o -> 0 <= max_head o -> tpos tru -> eligible o tru h ->
  forall schs w, winv o w -> wpos w -> In h (w_active w) ->
  (Z.to_nat (max_shard o - Z.of_nat (length (w_shards w))) < length schs)%nat ->
  let w' := fold_left (calm_round_with o tru) schs w in
  held w' h \/ Z.of_nat (length (w_shards w')) = max_shard o.
Proof. exact placed_or_at_cap. Qed.
Print Assumptions C03_placed_or_at_cap.

Theorem C03_converges_in_regime : forall o tru schs w, regime o -> 0 <= max_head o -> tpos tru ->
  winv o w -> wpos w -> NoDup (w_active w) ->
  (2 <= length schs)%nat -> (Z.to_nat (max_shard o - Z.of_nat (length (w_shards w))) < length schs)%nat ->
  let w' := fold_left (calm_round_with o tru) schs w in
  wclean w' /\
  forall h, In h (w_active w) -> eligible o tru h ->
    Z.of_nat (length (w_shards w')) = max_shard o \/
    exists k, (k < length (w_shards w'))%nat /\
      (exists e, afind h (status_at w' k) = Some e /\ ss_state e = Normal) /\
      forall j, j <> k -> (j < length (w_shards w'))%nat -> afind h (status_at w' j) = None.
Proof. exact converges_in_regime. Qed.
Print Assumptions C03_converges_in_regime.

Theorem C03_clean_held_world_is_settled : forall o tru w, regime o -> winv o w -> min_shard o <= Z.of_nat (length (w_shards w)) ->
  wclean w -> all_held_or_unplaceable o tru w -> settled o (cycle_input tru w no_faults).
Proof. exact wclean_settled. Qed.
Print Assumptions C03_clean_held_world_is_settled.

Theorem C03_converged_stays : forall o tru, regime o -> forall schs w, winv o w -> min_shard o <= Z.of_nat (length (w_shards w)) ->
  wclean w -> all_held_or_unplaceable o tru w -> same_placement w (fold_left (calm_round_with o tru) schs w).
Proof. exact converged_stays. Qed.
Print Assumptions C03_converged_stays.

(* non-vacuity: the world of C03_example_converges (a pending transfer, two duplicates) meets every hypothesis under the
   regime options, and five rounds with the default iteration order end as the theorem says *)
Definition cv_opts : opts := {| max_head := 0; max_proc := 100; max_shard := 4; min_shard := 1; max_idle := 0; disable_alleviate := true |}.
Definition cv_w0 : world := world_of_obs ex_truth [10%N; 11%N; 12%N] ex_obs.
Ltac cv_nodup := repeat constructor; cbn; intuition discriminate.
Ltac cv_wf := constructor; cbn;
  [ cv_nodup | reflexivity
  | intros t Ht; repeat (destruct Ht as [<-|Ht]; [cbn; eauto|]); destruct Ht
  | split; intros H; [discriminate | exfalso; now apply H]
  | cv_nodup ].
Example C03_converges_example :
  regime cv_opts /\ winv cv_opts cv_w0 /\ tpos ex_truth /\ wpos cv_w0 /\ NoDup (w_active cv_w0) /\
  (forall h, In h (w_active cv_w0) -> eligible cv_opts ex_truth h) /\
  (Z.to_nat (max_shard cv_opts - Z.of_nat (length (w_shards cv_w0))) < 5)%nat /\
  map (fun s => map (fun kv => (fst kv, ss_state (snd kv))) (sc_status (ws_sc s)))
      (w_shards (fold_left (calm_round_with cv_opts ex_truth) [[]; []; []; []; []] cv_w0)) =
  [[(12%N, Normal)]; [(10%N, Normal)]; [(11%N, Normal)]].
Proof.
  split; [constructor; cbn; try reflexivity; lia|].
  split. { constructor; [unfold wwf; cbn; repeat (constructor; [cv_wf|]); constructor | unfold wsynced; cbn; repeat constructor | cbn; lia]. }
  split. { intros h. unfold truth_of, ex_truth. cbn. repeat (destruct (N.eqb h _); [cbn; lia|]). cbn. lia. }
  split. { intros k h e. unfold status_at. destruct k as [|[|[|k]]]; cbn;
           repeat (destruct (N.eqb h _); [intros H; injection H as <-; unfold spos; cbn; lia|]); try discriminate.
           destruct k; cbn; discriminate. }
  split; [cv_nodup|].
  split. { intros h [<-|[<-|[<-|[]]]]; (split; [reflexivity|split; [reflexivity|left; cbn; lia]]). }
  split; [cbn; lia|vm_compute; reflexivity].
Qed.
