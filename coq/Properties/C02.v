(* Properties/C02.v — Sharded scraping is label- and URL-equivalent to one plain Prometheus. *)
From KV Require Import Base.Util Model.Inject Model.Translate Proofs.TranslateProofs.
Local Open Scope list_scope.
Local Open Scope string_scope.

(* `plain` is the route of one Prometheus (the library's PopulateLabels + Target.URL), `sharded` the route through
   kvass (its own populateLabels, labelsWithoutConfigParam, supportInvalidLabelName, target2targetGroup, the
   library's PopulateLabels on the shard under the generated job, translateURL in the proxy); relabeling, the port test,
   the address check and the interval check are parameters.  Both functions are evaluated against the real code on
   every run (the library as reference, the real discovery/injector/proxy as system).

   C02_equivalent is the full statement for EVERY relabel function, port test, address check, interval check, job
   and discovered label set, under hypotheses that say what the property needs of the relabel program:
     - the two relabel runs (with the two interval labels in the input: one Prometheus; without: the coordinator)
       both drop the target or both keep it, and their results agree on every label but the two interval labels, which
       the coordinator's result does not carry (the rules neither read nor write them: without this the statement is
       refuted below, a known finding);
     - the relabelled set is a label set (unique names, no empty value), keeps job, scheme and metrics path, has no
       name that already carries the invalid-label prefix, no routing parameter name, and its __param_ names are
       valid names;
     - the job's params have unique keys, none of them a routing name; an address that got its port needs none.
   Results are compared as what they are: label sets as maps from names to values, queries key by key
   (res_equiv).  C02_equivalent_checked is the same with every hypothesis as a computable test, which the
   correspondence run evaluates on its inputs (evidence: model_theorem_applies).  *)
From KV Require Import Proofs.TranslateEquiv Proofs.TranslateRules Proofs.TranslateSorted.

(* THE PROPERTY, as an equation of the two routes: the same target or none, the same visible label list, the same URL
   (scheme, host, path, encoded query).  C02_equivalent below is the statement "equal as maps" it is derived from; visible
   label sets (sorted by name, unique, no empty value) and encoded queries (keys in order, unique, no empty value list)
   are canonical forms, so agreement on every name and key is equality of the lists (Proofs/TranslateSorted.v). *)
Theorem C02_equal :
  forall (R : labels -> option labels) (np aok : string -> bool) (iok : string -> string -> bool)
         (c : jobcfg) (hash : N) (d : labels),
  ndq (jc_params c) ->
  qval "_hash" (jc_params c) = [] /\ qval "_jobName" (jc_params c) = [] /\ qval "_scheme" (jc_params c) = [] ->
  (forall a, np a = true -> np (a ++ ":80") = false /\ np (a ++ ":443") = false) ->
  forall Lp Lc : labels,
  R (pre true c d) = Some Lp ->
  R (pre false c d) = Some Lc ->
  (forall k, lval k Lp = if String.eqb k I_ then jc_interval c else if String.eqb k T_ then jc_timeout c else lval k Lc) ->
  lval I_ Lc = "" -> lval T_ Lc = "" ->
  nd Lp -> ne Lp -> relabelled_ok Lc ->
  sharded R np aok iok c hash d = plain R np aok iok c d.
Proof.
  intros R np aok iok c hash d Hps Hrps Hadd Lp Lc. intros.
  apply sharded_equals_plain; [now split | exact Hadd | now apply (runs_agree_intro R c d Lp Lc)].
Qed.
Print Assumptions C02_equal.

(* ... and for relabel programs of the interpreter, every hypothesis being a computable test on the coordinator's run *)
Theorem C02_equal_for_rules_checked : forall rs np aok iok c hash d,
  (forall a, np a = true -> np (a ++ ":80") = false /\ np (a ++ ":443") = false) ->
  rules_hyp_okb rs c d = true ->
  sharded (relabel_rules rs) np aok iok c hash d = plain (relabel_rules rs) np aok iok c d.
Proof.
  intros rs np aok iok c hash d Hadd H. destruct (rules_hyp_okb_sound rs c d H). now apply sharded_equals_plain.
Qed.
Print Assumptions C02_equal_for_rules_checked.

Theorem C02_equivalent :
  forall (R : labels -> option labels) (np aok : string -> bool) (iok : string -> string -> bool)
         (c : jobcfg) (hash : N) (d : labels),
  ndq (jc_params c) ->
  qval "_hash" (jc_params c) = [] /\ qval "_jobName" (jc_params c) = [] /\ qval "_scheme" (jc_params c) = [] ->
  (forall a, np a = true -> np (a ++ ":80") = false /\ np (a ++ ":443") = false) ->
  forall Lp Lc : labels,
  R (pre true c d) = Some Lp ->
  R (pre false c d) = Some Lc ->
  (forall k, lval k Lp = if String.eqb k I_ then jc_interval c else if String.eqb k T_ then jc_timeout c else lval k Lc) ->
  lval I_ Lc = "" -> lval T_ Lc = "" ->
  nd Lp -> ne Lp -> relabelled_ok Lc ->
  res_equiv (sharded R np aok iok c hash d) (plain R np aok iok c d).
Proof.
  intros R np aok iok c hash d Hps Hrps Hadd Lp Lc. intros.
  apply sharded_equiv_plain; [now split | exact Hadd | now apply (runs_agree_intro R c d Lp Lc)].
Qed.
Print Assumptions C02_equivalent.

Theorem C02_equivalent_checked :
  forall R np aok iok c hash d,
  (forall a, np a = true -> np (a ++ ":80") = false /\ np (a ++ ":443") = false) ->
  cfg_okb c = true -> hyp_okb R c d = true ->
  res_equiv (sharded R np aok iok c hash d) (plain R np aok iok c d).
Proof.
  intros R np aok iok c hash d Hadd Hc Hh.
  apply sharded_equiv_plain; [now apply cfg_okb_sound | exact Hadd | now apply hyp_okb_sound].
Qed.
Print Assumptions C02_equivalent_checked.

(* For relabel programs of the interpreter (the literal-pattern subset the correspondence run generates) the hypothesis
   on the two relabel runs is itself a theorem: every hypothesis below is about the COORDINATOR's run alone -
   the discovered set carries no interval label, the rule list passes blind_run along that run (no rule reads or writes
   an interval label, labelmap neither matches nor produces one, labeldrop does not match one, labelkeep keeps both), and
   the relabelled set has the shape relabelled_ok.  The run one plain Prometheus makes (interval labels in the input) is
   then proved to be the coordinator's run plus the two labels (Proofs/TranslateRules.v rules_rel). *)
Theorem C02_equivalent_for_rules : forall rs np aok iok c hash d,
  (forall a, np a = true -> np (a ++ ":80") = false /\ np (a ++ ":443") = false) ->
  cfg_okb c = true ->
  strip d = d -> nd d -> ne d ->
  blind_run rs (pre false c d) = true ->
  (forall Lc, relabel_rules rs (pre false c d) = Some Lc -> relabelled_ok Lc) ->
  res_equiv (sharded (relabel_rules rs) np aok iok c hash d) (plain (relabel_rules rs) np aok iok c d).
Proof.
  intros rs np aok iok c hash d Hadd Hc Hd Hnd Hne Hb Hok.
  apply sharded_equiv_plain; [now apply cfg_okb_sound | exact Hadd | now apply rules_runs].
Qed.
Print Assumptions C02_equivalent_for_rules.

Theorem C02_equivalent_for_rules_checked : forall rs np aok iok c hash d,
  (forall a, np a = true -> np (a ++ ":80") = false /\ np (a ++ ":443") = false) ->
  rules_hyp_okb rs c d = true ->
  res_equiv (sharded (relabel_rules rs) np aok iok c hash d) (plain (relabel_rules rs) np aok iok c d).
Proof.
  intros rs np aok iok c hash d Hadd H. destruct (rules_hyp_okb_sound rs c d H). now apply sharded_equiv_plain.
Qed.
Print Assumptions C02_equivalent_for_rules_checked.

(* the shard's labels, closed form: what the shard's Prometheus holds for a query parameter of the job *)
Theorem C02_param_on_shard :
  forall c hash L addr, good (jc_params c) L addr -> ndq (jc_params c) -> forall x, routing x = false ->
  lval ("__param_" ++ x) (F_ c hash L addr) =
  if String.eqb (lval ("__param_" ++ x) L) "" then match qval x (jc_params c) with v0 :: _ => v0 | [] => "" end
  else lval ("__param_" ++ x) L.
Proof. exact F_param. Qed.
Print Assumptions C02_param_on_shard.

(* the proxy: host and path untouched, the scheme comes back from the routing parameter, the query loses exactly the
   three routing parameters *)
Theorem C02_proxy_restores : forall u,
  u_host (translate_url u) = u_host u /\ u_path (translate_url u) = u_path u /\
  u_scheme (translate_url u) = qget "_scheme" (u_query u) /\
  (forall kv, In kv (u_query (translate_url u)) <-> In kv (u_query u) /\ routing (fst kv) = false).
Proof. exact translate_url_fields. Qed.
Print Assumptions C02_proxy_restores.

Theorem C02_routing_param_forgotten : forall k u,
  qval k (u_query (translate_url u)) = if routing k then [] else qval k (u_query u).
Proof. exact qval_translate. Qed.
Print Assumptions C02_routing_param_forgotten.

(* a parameter the job configures: dropped from the shipped labels when it still has the job's value, shipped under
   the prefix (to be restored by the labelmap rule after the shard's Prometheus reset it) when relabeling changed it *)
Theorem C02_param_shipping : forall ps k v,
  without_config_param ps [("__param_" ++ k, v)] =
  match find (fun p => String.eqb (fst p) (drop_prefix "__param_" ("__param_" ++ k))) ps with
  | Some (_, v0 :: _) => if String.eqb v v0 then [] else [(invalid_prefix ++ "__param_" ++ k, v)]
  | _ => [("__param_" ++ k, v)]
  end.
Proof. exact shipped_param_rule. Qed.
Print Assumptions C02_param_shipping.

Definition w_cfg : jobcfg :=
  {| jc_name := "job0"; jc_scheme := "https"; jc_path := "/probe"; jc_params := [("module", ["http_2xx"; "second"]); ("target", ["dflt"])];
     jc_interval := "15s"; jc_timeout := "10s" |}.
Definition w_rules : list rrule :=
  [ {| rr_action := RReplace; rr_src := ["__address__"]; rr_sep := ";"; rr_pat := PAny; rr_target := "__param_target"; rr_repl := [TCap] |};
    {| rr_action := RReplace; rr_src := ["__param_target"]; rr_sep := ";"; rr_pat := PSome; rr_target := "__address__"; rr_repl := [TLit "blackbox:9115"] |};
    {| rr_action := RLabelMap; rr_src := []; rr_sep := ";"; rr_pat := PPrefixSome "__meta_"; rr_target := ""; rr_repl := [TCap] |} ].
Definition w_d : labels := [("__address__", "h1"); ("__meta_9x", "nine"); ("env", "prod")].

(* the hypotheses of C02_equivalent_checked hold on this witness (a configured parameter overridden by a rule, a
   mapped name starting with a digit) and on the port test of the correspondence run *)
Example C02_hypotheses_satisfiable :
  cfg_okb w_cfg = true /\ hyp_okb (relabel_rules w_rules) w_cfg w_d = true /\ rules_hyp_okb w_rules w_cfg w_d = true /\
  (forall a, x_needs_port a = true -> x_needs_port (a ++ ":80") = false /\ x_needs_port (a ++ ":443") = false).
Proof. split; [vm_compute; reflexivity|]. split; [vm_compute; reflexivity|]. split; [vm_compute; reflexivity|]. exact x_needs_port_add. Qed.

Example C02_example_equal :
  sharded (relabel_rules w_rules) x_needs_port x_addr_ok x_interval_ok w_cfg 77 w_d =
  plain (relabel_rules w_rules) x_needs_port x_addr_ok x_interval_ok w_cfg w_d /\
  plain (relabel_rules w_rules) x_needs_port x_addr_ok x_interval_ok w_cfg w_d =
  Some ([("9x", "nine"); ("env", "prod"); ("instance", "blackbox:9115"); ("job", "job0")],
        {| u_scheme := "https"; u_host := "blackbox:9115"; u_path := "/probe";
           u_query := [("module", ["http_2xx"; "second"]); ("target", ["h1"])] |}).
Proof.
  split; [|vm_compute; reflexivity].
  apply C02_equal_for_rules_checked; [exact x_needs_port_add | exact (proj1 (proj2 (proj2 C02_hypotheses_satisfiable)))].
Qed.

(* the full statement without the hypothesis on the interval labels is false: a rule that copies
   __scrape_interval__ into a visible label (the known finding, replayed on the code by the correspondence run) *)
Definition w_ivl : list rrule :=
  [ {| rr_action := RReplace; rr_src := ["__scrape_interval__"]; rr_sep := ";"; rr_pat := PAny; rr_target := "ivl"; rr_repl := [TCap] |} ].
Theorem C02_equiv_refuted_interval_labels :
  sharded (relabel_rules w_ivl) x_needs_port x_addr_ok x_interval_ok w_cfg 77 w_d <>
  plain (relabel_rules w_ivl) x_needs_port x_addr_ok x_interval_ok w_cfg w_d.
Proof.
  intros H. apply (f_equal (option_map (fun r => lval "ivl" (fst r)))) in H. vm_compute in H. discriminate.
Qed.
Print Assumptions C02_equiv_refuted_interval_labels.

(* ... and without the hypothesis that the relabelled set keeps its job label: a rule that empties `job` (one
   Prometheus: no job label; the shard's Prometheus fills the job name in again).  Known finding, found while
   proving C02_equivalent, replayed on the code by the correspondence run (corpus/C02). *)
Definition w_nojob : list rrule :=
  [ {| rr_action := RReplace; rr_src := ["__address__"]; rr_sep := ";"; rr_pat := PSome; rr_target := "job"; rr_repl := [] |} ].
Theorem C02_equiv_refuted_job_emptied :
  ~ res_equiv (sharded (relabel_rules w_nojob) x_needs_port x_addr_ok x_interval_ok w_cfg 77 w_d)
              (plain (relabel_rules w_nojob) x_needs_port x_addr_ok x_interval_ok w_cfg w_d).
Proof.
  intros H. apply (res_equiv_label _ _ "job") in H. vm_compute in H. discriminate.
Qed.
Print Assumptions C02_equiv_refuted_job_emptied.
